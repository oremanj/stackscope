(* P_Frames_Origin.v — C16: Frame.origin and extract_outermost. *)
Require Import Base M_Frames M_Frames_Fault M_Frames_Ambient P_Frames_Step P_Frames_Fault.

Definition head_result (o : outcome) : oresult :=
  match o with
  | Ok (Stack (f :: _) _ _) => OFrame f
  | Ok (Stack [] _ es) => ORaise es
  | Raised e => OEscaped e
  | OutOfFuel => OFuel
  end.

Lemma outermost_is_head_result c root :
  outermost c root = head_result (fst (run default_fuel true c (root_q c root) [] [] [] 0)).
Proof.
  unfold outermost, head_result.
  generalize (run default_fuel true c (root_q c root) [] [] [] 0). intros [o t]. cbn [fst].
  destruct o as [[[|x fr] lf es]|e|]; reflexivity.
Qed.

Lemma run_first_head fuel c tu te errs t frs lf es t2 :
  run fuel false c tu te errs [] t = (Ok (Stack frs lf es), t2) ->
  head_result (fst (run fuel true c tu te errs [] t)) =
  match frs with f :: _ => OFrame f | [] => ORaise es end.
Proof.
  destruct fuel as [|fuel]; intros H; [discriminate|].
  rewrite run_S in *. unfold run_step in *.
  destruct (flatten (S fuel) 0 c tu (rev te) errs t) as [te1 errs1 t1|e1|]; try discriminate.
  destruct te1 as [|[[f|f org|o|] d] rest]; try (inversion H; reflexivity).
  destruct (ctx_step c (child_of (run fuel) c) f errs1 t1) as [[[cx errs2] t2'] [bad|]] eqn:Ecx.
  { inversion H; subst. exfalso. eapply ctx_step_bad_not_ok; eauto. }
  destruct (elab_step c f errs2 t2') as [[[[r errs3] hide] t3] [e3|]]; [discriminate|].
  apply run_keeps in H. destruct H as [[nf ->] _]. reflexivity.
Qed.

Lemma outermost_eq_head c root s :
  extract c root = Ok s ->
  outermost c root = match s_frames s with f :: _ => OFrame f | [] => ORaise (s_errs s) end.
Proof.
  intros E. apply extract_is_run in E as [t2 R]. destruct s as [frs lf es].
  rewrite outermost_is_head_result. exact (run_first_head default_fuel c _ [] [] 0 frs lf es t2 R).
Qed.

(* A non-None origin is always a generator-like object whose own frame is that frame: an
   invariant of both queues and of the frames yielded so far. *)

Definition org_ok (c : cfg) (f : nat) (org : option nat) : Prop :=
  match org with Some o => gent (attr c o) = true /\ ownf (attr c o) = Some f | None => True end.
Definition qok (c : cfg) (q : qitem) : Prop := match q with QFr f org => org_ok c f org | _ => True end.
Definition fok (c : cfg) (x : fout) : Prop := match x with FOut f _ org _ => org_ok c f org end.
Definition tuok (c : cfg) (e : qent) : Prop := qok c (snd (fst e)).
Definition teok (c : cfg) (e : tent) : Prop := qok c (fst e).

Lemma frame_origin_ok c org f : org_ok c f (frame_origin c org f).
Proof.
  unfold frame_origin. destruct org as [o|]; [|exact I].
  destruct (gent (attr c o)) eqn:G; [|exact I]. simpl.
  destruct (option_eqb Nat.eqb (ownf (attr c o)) (Some f)) eqn:E; [|exact I].
  split; [assumption|]. exact (option_eqb_eq _ nat_eqb_true _ _ E).
Qed.

Lemma q_of_ok c i : qok c (q_of i).
Proof. destruct i; exact I. Qed.

Lemma pushed_ok c (g : item -> option nat) d l :
  Forall (tuok c) (map (fun i => (g i, q_of i, d)) l).
Proof. induction l; simpl; constructor; auto. apply q_of_ok. Qed.

Lemma flatten_ok fuel : forall cnt c tu te errs t te' errs' t',
  Forall (tuok c) tu -> Forall (teok c) te ->
  flatten fuel cnt c tu te errs t = FlOk te' errs' t' -> Forall (teok c) te'.
Proof.
  induction fuel as [|fuel IH]; intros cnt c tu te errs t te' errs' t' Htu Hte H; [discriminate|].
  destruct tu as [|[[org cur] d] tu']; [inversion H; subst; apply Forall_rev; assumption|].
  inversion Htu as [|x l Hx Htu']; subst.
  rewrite flatten_cons in H.
  destruct (unwrap_head cnt c cur errs t) as [e1 t1|l e1 t1|e]; [| |discriminate];
    (eapply IH; [| |exact H]); auto.
  - constructor; [|assumption]. destruct cur; [apply frame_origin_ok|exact Hx..].
  - apply Forall_app. split; [apply pushed_ok|assumption].
Qed.

Lemma dropge_ok c d q : Forall (tuok c) q -> Forall (tuok c) (dropge d q).
Proof.
  induction q as [|[[o i] d'] q IH]; simpl; intros H; [constructor|].
  destruct (d <=? d'); [apply IH; inversion H; assumption|assumption].
Qed.

Lemma redepth_ok c d q : Forall (tuok c) q -> Forall (tuok c) (redepth d q).
Proof.
  destruct q as [|[[o i] d'] q]; simpl; intros H; [constructor|].
  inversion H; subst. constructor; assumption.
Qed.

Lemma requeue_ok c rest : Forall (teok c) rest -> Forall (tuok c) (requeue rest).
Proof. unfold requeue. induction 1; simpl; constructor; auto. Qed.

Lemma conc_ok c next r : match next with Some q => qok c q | None => True end -> qok c (conc next r).
Proof. destruct r as [i| |]; simpl; intros H; [apply q_of_ok|destruct next; [assumption|exact I]|exact I]. Qed.

Lemma mk_ok c next d l : match next with Some q => qok c q | None => True end ->
  Forall (tuok c) (map (fun q => (better_origin c q None, q, d)) (map (conc next) l)).
Proof. intros H. induction l; simpl; constructor; auto. apply conc_ok; assumption. Qed.

Lemma requeued_ok c r d rest : Forall (teok c) rest ->
  Forall (tuok c) (fst (requeued c r d rest)) /\ Forall (teok c) (snd (requeued c r d rest)).
Proof.
  intros Hrest.
  assert (Hnext : match next_of rest with Some q => qok c q | None => True end).
  { destruct rest as [|[q0 d0] rest']; simpl; [exact I|]. inversion Hrest; assumption. }
  pose proof (requeue_ok c rest Hrest) as Hrq.
  assert (Ins : forall l, Forall (tuok c)
            (if ends_with_next (next_of rest) l
             then map (fun q => (better_origin c q None, q, d)) (map (conc (next_of rest)) (removelast l)) ++ redepth d (requeue rest)
             else map (fun q => (better_origin c q None, q, d)) (map (conc (next_of rest)) l) ++ dropge d (requeue rest))).
  { intros l. destruct (ends_with_next (next_of rest) l); apply Forall_app; split;
      auto using mk_ok, redepth_ok, dropge_ok. }
  destruct r as [|l|[i| |]|]; cbn [requeued fst snd]; try (split; [apply Ins|constructor]);
    try (split; [constructor|exact Hrest]).
  destruct (next_of rest) as [[| | |]|]; cbn [fst snd]; split; auto using redepth_ok, Forall_nil.
Qed.

Lemma run_ok fuel : forall first c tu te errs out t frs lf es t',
  Forall (tuok c) tu -> Forall (teok c) te -> Forall (fok c) out ->
  run fuel first c tu te errs out t = (Ok (Stack frs lf es), t') -> Forall (fok c) frs.
Proof.
  induction fuel as [|fuel IH]; intros first c tu te errs out t frs lf es t' Htu Hte Hout H; [discriminate|].
  rewrite run_S in H. apply run_step_Ok in H. destruct H as (te1 & errs1 & t1 & Efl & H).
  apply flatten_ok in Efl; [|assumption|apply Forall_rev; assumption].
  destruct H as [(_ & E & _)|(f & org & d & rest & cx & errs2 & t2 & r & errs3 & hide & t3 & -> & _ & _ & H)].
  { inversion E; subst. apply Forall_rev, Hout. }
  inversion Efl as [|x l Hq Hrest]; subst.
  assert (Hout' : Forall (fok c) (FOut f hide org cx :: out)) by (constructor; assumption).
  destruct first; [destruct H as [E _]; inversion E; subst; apply (Forall_rev Hout')|].
  destruct (requeued_ok c r d rest Hrest) as [A B]. exact (IH _ _ _ _ _ _ _ _ _ _ _ A B Hout' H).
Qed.

Lemma extract_origin_ok c root s fo o :
  extract c root = Ok s -> In fo (s_frames s) -> f_org fo = Some o ->
  gent (attr c o) = true /\ ownf (attr c o) = Some (f_py fo).
Proof.
  intros E Hin Ho. apply extract_is_run in E as [t' R]. destruct s as [frs lf es].
  assert (F : Forall (fok c) frs).
  { eapply run_ok; [| | |exact R]; [|constructor|constructor].
    unfold root_q. constructor; [|constructor]. apply q_of_ok. }
  rewrite Forall_forall in F. specialize (F fo Hin). destruct fo as [f h org cx]. simpl in *. subst org. exact F.
Qed.

(* what the built-in glue guarantees for coroutine / generator / async-generator objects:
   they are weak-referenceable and unwrap to (own frame, thing awaited) *)
Definition gen_wf (c : cfg) : Prop :=
  forall o f, gent (attr c o) = true -> ownf (attr c o) = Some f ->
    wref (attr c o) = true /\ exists rest, unwrap c o = USeq (Some (IPy f) :: rest).

Lemma better_origin_gen c o fb : wref (attr c o) = true -> gent (attr c o) = true ->
  better_origin c (QObj o) fb = Some o.
Proof. intros W G. unfold better_origin. rewrite W, G. reflexivity. Qed.

Lemma frame_origin_own c o f : gent (attr c o) = true -> ownf (attr c o) = Some f ->
  frame_origin c (Some o) f = Some o.
Proof. intros G O. unfold frame_origin. rewrite G, O. simpl. rewrite Nat.eqb_refl. reflexivity. Qed.

Lemma flatten_look_inside fuel cnt c o f rest d tu te errs t :
  gent (attr c o) = true -> ownf (attr c o) = Some f -> unwrap c o = USeq (Some (IPy f) :: rest) ->
  fault c t = false -> (uguard c <? S cnt) = false ->
  flatten (S (S fuel)) cnt c ((Some o, QObj o, d) :: tu) te errs t =
  flatten fuel 0 c (pushed c (Some o) (S d) (somes rest) ++ tu) ((QFr f (Some o), S d) :: te) errs (S t).
Proof.
  intros G O U F L. rewrite flatten_cons, unwrap_head_obj, U by assumption. cbn [somes pushed map app].
  rewrite flatten_cons. cbn [q_of unwrap_head settled better_origin]. rewrite (frame_origin_own c o f G O). reflexivity.
Qed.

Lemma flatten_te_prefix fuel : forall cnt c tu te errs t te' errs' t',
  flatten fuel cnt c tu te errs t = FlOk te' errs' t' -> exists more, te' = rev te ++ more.
Proof.
  induction fuel as [|fuel IH]; intros cnt c tu te errs t te' errs' t' H; [discriminate|].
  destruct tu as [|[[org cur] d] tu'].
  { inversion H; subst. exists []. symmetry. apply app_nil_r. }
  rewrite flatten_cons in H.
  destruct (unwrap_head cnt c cur errs t) as [e1 t1|l e1 t1|e]; [|eapply IH; eassumption|discriminate].
  apply IH in H. destruct H as [more ->]. exists ((settled c org cur, d) :: more). simpl. rewrite <- app_assoc. reflexivity.
Qed.

Lemma run_recover fuel c o f :
  gen_wf c -> gent (attr c o) = true -> ownf (attr c o) = Some f ->
  fault c 0 = false -> 1 <= uguard c ->
  match head_result (fst (run (S (S fuel)) true c (root_q c (IObj o)) [] [] [] 0)) with
  | OFrame fo' => f_py fo' = f /\ f_org fo' = Some o
  | ORaise _ => False
  | _ => True
  end.
Proof.
  intros W G O F L. destruct (W o f G O) as [Wr [rest U]].
  unfold root_q. cbn [q_of]. rewrite (better_origin_gen c o None Wr G).
  rewrite run_S. unfold run_step. cbn [rev].
  assert (L' : (uguard c <? 1) = false) by (apply Nat.ltb_ge; assumption).
  rewrite (flatten_look_inside fuel 0 c o f rest 0 [] [] [] 0 G O U F L').
  destruct (flatten fuel 0 c _ _ [] 1) as [te1 errs1 t1|e1|] eqn:Efl; [|exact I|exact I].
  apply flatten_te_prefix in Efl. destruct Efl as [more ->]. cbn [rev app].
  destruct (ctx_step c (child_of (run (S fuel)) c) f errs1 t1) as [[[cx errs2] t2] [bad|]] eqn:Ecx.
  { destruct bad as [s0| |]; [|exact I|exact I]. exfalso. eapply ctx_step_bad_not_ok; eauto. }
  destruct (elab_step c f errs2 t2) as [[[[r errs3] hide] t3] [e|]]; [exact I|].
  split; reflexivity.
Qed.

Lemma outermost_recover c o f :
  gen_wf c -> gent (attr c o) = true -> ownf (attr c o) = Some f ->
  fault c 0 = false -> 1 <= uguard c ->
  match outermost c (IObj o) with
  | OFrame fo' => f_py fo' = f /\ f_org fo' = Some o
  | ORaise _ => False
  | _ => True
  end.
Proof.
  intros W G O F L. rewrite outermost_is_head_result.
  (* [run_recover] wants S (S _): the first [flatten] spends two steps, on o and on its own frame *)
  change default_fuel with (S (S 3998)). apply run_recover; assumption.
Qed.

Lemma origin_recovers c root s fo o fl :
  gen_wf c -> 1 <= uguard c -> fl 0 = false ->
  extract c root = Ok s -> In fo (s_frames s) -> f_org fo = Some o ->
  match outermost (with_faults c fl) (IObj o) with
  | OFrame fo' => f_py fo' = f_py fo /\ f_org fo' = Some o
  | ORaise _ => False
  | _ => True
  end.
Proof.
  intros W L F E Hin Ho. destruct (extract_origin_ok c root s fo o E Hin Ho) as [G O].
  apply outermost_recover; assumption.
Qed.

Lemma set_wc_id c : set_wc c (with_ctx c) = c.
Proof. destruct c. reflexivity. Qed.

Lemma api_ambient_independent cell arg c root :
  api_extract cell arg c root = (extract (set_wc c (fst arg)) root, cell) /\
  api_outermost cell arg c root = (outermost (set_wc c (fst arg)) root, cell).
Proof.
  destruct arg as [w r]. unfold api_extract, api_outermost, push, iter_under. cbn [fst].
  rewrite outermost_is_head_result. unfold extract, extract_t.
  change (root_q (set_wc c w) root) with (root_q c root).
  generalize (run default_fuel false (set_wc c w) (root_q c root) [] [] [] 0).
  generalize (run default_fuel true (set_wc c w) (root_q c root) [] [] [] 0).
  intros p1 p2. split; reflexivity.
Qed.
