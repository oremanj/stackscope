(* C15 -- greenlet stacks per lifecycle state (proved in P_Greenlet.v) about the model functions
   M_Greenlet.unwrap_greenlet / M_Slice.unwrap_stackslice that harness/c15.py evaluates on real
   greenlet trees.  The greenback bridges: model M_Greenback.gb_extract (the three elaborators over
   the frame shapes recorded from real runs), evaluated by the correspondence kind "gb". *)
From Coq Require Import ZArith String.
Require Import Base M_Slice P_Slice M_Greenlet P_Greenlet M_Greenback P_Greenback P_GreenbackFrames.

(* unstarted or dead: no frames *)
Theorem C15_inactive_empty : forall w g,
  g_frame g = None -> g_active g = false -> unwrap_greenlet w g = GEmpty.
Proof. intros w g H1 H2. unfold unwrap_greenlet. rewrite H1, H2. reflexivity. Qed.
Print Assumptions C15_inactive_empty.

(* running in another thread: an error rather than some other stack *)
Theorem C15_elsewhere_raises : forall w g,
  g_frame g = None -> g_active g = true -> g_current g = false -> unwrap_greenlet w g = GRaise.
Proof. intros w g H1 H2 H3. unfold unwrap_greenlet. rewrite H1, H2, H3. reflexivity. Qed.
Print Assumptions C15_elsewhere_raises.

(* the same cell spelled out for the MAIN greenlet (parent None) of another live thread, running
   there: having no parent does not make it the asker's own main greenlet -- every thread has one *)
Theorem C15_foreign_main_raises : forall w g,
  g_parent g = None -> g_frame g = None -> g_active g = true -> g_current g = false ->
  unwrap_greenlet w g = GRaise.
Proof. intros w g _. exact (C15_elsewhere_raises w g). Qed.
Print Assumptions C15_foreign_main_raises.

(* the greenlet making the call: exactly its own portion of the running stack *)
Theorem C15_current_own : forall w g tc,
  wf w -> g_frame g = None -> g_active g = true -> g_current g = true ->
  true_caller w = Some tc ->
  (forall x, g_parent g = Some (Some x) -> ~ In x (caller_chain w)) ->
  (g_parent g = None -> w_parents w = []) ->
  unwrap_greenlet w g = GSlice (SFrames (rev (caller_chain w))).
Proof. exact current_own. Qed.
Print Assumptions C15_current_own.

(* suspended, asked from outside / a sibling / another thread: its own frames entry..switch *)
Theorem C15_suspended_foreign : forall w g fr,
  g_frame g = Some fr ->
  NoDup (chain_from w fr) -> hd_error (chain_from w fr) = Some fr ->
  ~ In fr (thread_frames w) ->
  (has_parent w = true -> true_caller w <> None) ->
  unwrap_greenlet w g = GSlice (SFrames (rev (chain_from w fr))).
Proof. exact suspended_foreign. Qed.
Print Assumptions C15_suspended_foreign.

(* suspended, asked from a child / descendant (finding F8 before the fix): a greenlet whose
   gr_frame heads one of the asker's parent chains yields exactly that chain -- on wf w alone.
   Together with C15_suspended_foreign: the answer does not depend on who asks. *)
Theorem C15_asker_independent_ancestor : forall w g fr p,
  wf w -> true_caller w <> None ->
  g_frame g = Some fr -> In p (w_parents w) -> hd_error p = Some fr ->
  unwrap_greenlet w g = GSlice (SFrames (rev p)).
Proof.
  intros w g fr p Hwf Htc Hf Hin Hhd. destruct (parent_segment w p Hin) as [A [B HT]].
  exact (suspended_ancestor w g fr A p B Hwf Htc Hf (parent_chain_from w p fr Hwf Hin Hhd) Hhd HT).
Qed.
Print Assumptions C15_asker_independent_ancestor.

Theorem C15_hypotheses_satisfiable :
  wf wg
  /\ unwrap_greenlet wg {| g_frame := Some 4; g_active := true; g_current := false; g_parent := Some (Some 2) |}
     = GSlice (SFrames [3; 4])
  /\ unwrap_greenlet wg {| g_frame := Some 21; g_active := true; g_current := false; g_parent := Some (Some 2) |}
     = GSlice (SFrames [20; 21])
  /\ unwrap_greenlet wg {| g_frame := None; g_active := true; g_current := true; g_parent := Some (Some 4) |}
     = GSlice (SFrames [5; 6])
  /\ thread_frames wg = [6; 5] ++ [4; 3] ++ [2; 1; 0] /\ chain_from wg 4 = [4; 3].
Proof. exact wg_examples. Qed.
Print Assumptions C15_hypotheses_satisfiable.

(* greenback, extraction from inside the task, j greenlets below its sync code, for EVERY number n
   of async/sync alternations, whichever level (if any) was last resumed by throw() and under
   either event loop: the visible frames are exactly the user's call stack -- through each await_
   bridge down to the caller's own frames -- and every bridging frame is hidden *)
Theorem C15_greenback_n_inside : forall n j err aio awt,
  exists l, gb_extract {| sc_inside := true; sc_n := n; sc_j := j; sc_err := err; sc_aio := aio; sc_awt := awt |} = GOk l
            /\ visible l = FShimCoro :: FTarget :: ulog awt n ++ [FA 0; FLeaf] ++ repeat FNested (S j) ++ [FProbe]
            /\ (forall k h, In (k, h) l -> bridging k = true -> h = true).
Proof. exact greenback_inside. Qed.
Print Assumptions C15_greenback_n_inside.

(* the same from outside the task (parked in a regular await at level 0); awt = every await_ is
   given a non-coroutine awaitable: adapt_awaitable and __await__ are frames on the way *)
Theorem C15_greenback_n_outside : forall n err aio awt,
  exists l, gb_extract {| sc_inside := false; sc_n := n; sc_j := 0; sc_err := err; sc_aio := aio; sc_awt := awt |} = GOk l
            /\ visible l = FShimCoro :: FTarget :: ulog awt n ++ [FA 0; FWait]
            /\ (forall k h, In (k, h) l -> bridging k = true -> h = true).
Proof. intros n. exact (greenback_outside n 0). Qed.
Print Assumptions C15_greenback_n_outside.

Theorem C15_greenback_example :
  visible (match gb_extract {| sc_inside := true; sc_n := 2; sc_j := 1; sc_err := Some 1; sc_aio := true; sc_awt := true |}
           with GOk l => l | _ => [] end)
  = [FShimCoro; FTarget; FA 2; FS 2; FAdapt; FDunder; FA 1; FS 1; FAdapt; FDunder; FA 0; FLeaf; FNested; FNested; FProbe].
Proof. exact greenback_example. Qed.
Print Assumptions C15_greenback_example.

(* composition with the general extract_iter model of C10: tabulating the greenback hooks'
   decisions for a scenario (gb_cfg) and running M_Frames.extract on that table yields exactly the
   frames and hide flags of gb_extract, no leaf, no error -- for every scenario with n <= 6
   alternations, j <= 3 nested greenlets, any throw()-resumed level <= 6, inside and outside, trio
   and asyncio (the bound is what the default fuel covers: P_GreenbackFrames.greenback_composes_fuel
   is the statement for every scenario and every sufficient fuel) *)
Theorem C15_greenback_composes_with_extract_iter : forall inside aio awt n j err,
  n <= 6 -> j <= 3 -> (forall m, err = Some m -> m <= 6) ->
  compose_ok {| sc_inside := inside; sc_n := n; sc_j := j; sc_err := err; sc_aio := aio; sc_awt := awt |} = true.
Proof. exact greenback_composes. Qed.
Print Assumptions C15_greenback_composes_with_extract_iter.
