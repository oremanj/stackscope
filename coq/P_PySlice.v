(* P_PySlice.v -- M_Slice.py_slice (CPython's index arithmetic: PySlice_AdjustIndices, slice
   length, copy loop) equals a direct recursive definition of Python's slice semantics, for all
   lists, all start/stop in {None} + Z (negative and out of range included) and every step. *)
From Coq Require Import ZArith String Lia.
Require Import Base M_Slice.

(* every k-th element, starting with the first; c = elements still to be skipped *)
Fixpoint every_aux {A} (k c : nat) (l : list A) : list A :=
  match l with
  | [] => []
  | x :: r => match c with 0 => x :: every_aux k (k - 1) r | S c' => every_aux k c' r end
  end.
Definition every {A} (k : nat) (l : list A) : list A := every_aux k 0 l.

(* where a bound lands: counted from the end if negative, then cut to the list *)
Definition norm_fwd (len v : Z) : Z := if (v <? 0)%Z then Z.max 0 (v + len) else Z.min v len.
Definition norm_bwd (len v : Z) : Z := if (v <? 0)%Z then Z.max (-1) (v + len) else Z.min v (len - 1).

Definition py_slice_spec {A} (l : list A) (a b : option Z) (step : Z) : list A :=
  let len := Z.of_nat (length l) in
  if (0 <? step)%Z then
    let lo := match a with None => 0%Z | Some v => norm_fwd len v end in
    let hi := match b with None => len | Some v => norm_fwd len v end in
    (* l[lo], l[lo+step], ... below hi *)
    every (Z.to_nat step) (skipn (Z.to_nat lo) (firstn (Z.to_nat hi) l))
  else if (step <? 0)%Z then
    let hi := match a with None => (len - 1)%Z | Some v => norm_bwd len v end in
    let lo := match b with None => (-1)%Z | Some v => norm_bwd len v end in
    (* l[hi], l[hi+step], ... above lo: walk the reversed segment l[lo+1 .. hi] *)
    every (Z.to_nat (- step)) (rev (skipn (Z.to_nat (lo + 1)) (firstn (Z.to_nat (hi + 1)) l)))
  else [].

Lemma every_aux_skipn {A} k c (l : list A) : every_aux k c l = every k (skipn c l).
Proof.
  revert c. induction l as [|x r IH]; intros c; [destruct c; reflexivity|].
  destruct c as [|c]; [reflexivity|]. simpl. apply IH.
Qed.

Lemma every_cons {A} k x (r : list A) : 1 <= k -> every k (x :: r) = x :: every k (skipn k (x :: r)).
Proof.
  intros Hk. destruct k as [|k]; [inversion Hk|]. unfold every at 1. simpl.
  rewrite Nat.sub_0_r, every_aux_skipn. reflexivity.
Qed.

Lemma every_nil {A} k : every k (@nil A) = [].
Proof. reflexivity. Qed.

Lemma every_1 {A} (l : list A) : every 1 l = l.
Proof. induction l as [|x r IH]; [reflexivity|]. rewrite every_cons by apply le_n. simpl. rewrite IH. reflexivity. Qed.

Lemma nth_error_skipn {A} n (l : list A) j : nth_error (skipn n l) j = nth_error l (n + j).
Proof.
  revert l. induction n as [|n IH]; intros [|x l]; simpl; try reflexivity; [|apply IH].
  destruct j; reflexivity.
Qed.

Lemma nth_error_firstn {A} (l : list A) s h : s < h -> nth_error (firstn h l) s = nth_error l s.
Proof.
  revert s h. induction l as [|y l IH]; intros s h H; [destruct h, s; reflexivity|].
  destruct h; [lia|]. destruct s; [reflexivity|]. simpl. apply IH. lia.
Qed.

Lemma nth_error_rev {A} (l : list A) j : j < length l -> nth_error (rev l) j = nth_error l (length l - S j).
Proof.
  revert j. induction l as [|x l IH] using rev_ind; intros j Hj; [inversion Hj|].
  rewrite rev_app_distr. rewrite app_length, Nat.add_1_r in *. destruct j as [|j]; simpl.
  - rewrite Nat.sub_0_r, nth_error_app2, Nat.sub_diag by apply le_n. reflexivity.
  - apply Nat.succ_lt_mono in Hj. rewrite IH, nth_error_app1 by lia. reflexivity.
Qed.

Lemma seg_length {A} (l : list A) a h : h <= length l -> length (skipn a (firstn h l)) = h - a.
Proof. intros H. rewrite skipn_length, firstn_length_le by exact H. reflexivity. Qed.

Lemma nth_error_seg {A} (l : list A) a h j : a + j < h -> nth_error (skipn a (firstn h l)) j = nth_error l (a + j).
Proof. intros H. rewrite nth_error_skipn. apply nth_error_firstn, H. Qed.

Lemma gather_S {A} (l : list A) n cur step :
  gather l (S n) cur step =
  match nth_error l (Z.to_nat cur) with
  | Some x => x :: gather l n (cur + step)%Z step
  | None => gather l n (cur + step)%Z step
  end.
Proof. reflexivity. Qed.

(* The copy loop.  In either direction (sgn = 1 or -1) it reads the elements of a segment
   [seg] of the list at stride k, provided its count n is the least with n * k >= |seg|;
   d is the signed distance between the bounds, |seg| = max 0 d *)
Lemma gather_every {A} (l : list A) (k : nat) (sgn step : Z) :
  1 <= k -> step = (Z.of_nat k * sgn)%Z ->
  forall n seg cur d,
  Z.of_nat (length seg) = Z.max 0 d ->
  (forall j, j < length seg -> nth_error l (Z.to_nat (cur + Z.of_nat j * sgn)) = nth_error seg j) ->
  (d <= Z.of_nat n * Z.of_nat k)%Z ->
  (forall m, n = S m -> (Z.of_nat m * Z.of_nat k < d)%Z) ->
  gather l n cur step = every k seg.
Proof.
  intros Hk ->. induction n as [|n IH]; intros seg cur d Hd Hnth H1 H2.
  - destruct seg; [reflexivity|simpl in Hd; lia].
  - pose proof (H2 n eq_refl) as H3.
    destruct seg as [|x seg]; [simpl in Hd; lia|].
    rewrite gather_S. pose proof (Hnth 0) as H0. rewrite Z.mul_0_l, Z.add_0_r in H0.
    rewrite H0 by apply Nat.lt_0_succ. simpl nth_error. rewrite every_cons by exact Hk. f_equal.
    rewrite Nat2Z.inj_succ, Z.mul_succ_l in H1.
    apply (IH _ _ (d - Z.of_nat k)%Z).
    + rewrite skipn_length. lia.
    + intros j Hj. rewrite skipn_length in Hj. rewrite nth_error_skipn, <- Hnth by lia.
      rewrite Nat2Z.inj_add, Z.mul_add_distr_r, Z.add_assoc. reflexivity.
    + apply Z.le_sub_le_add_r, H1.
    + intros m ->. rewrite Nat2Z.inj_succ, Z.mul_succ_l in H3. apply Z.lt_add_lt_sub_r, H3.
Qed.

Lemma clamp_norm len v step :
  clamp len v step = if (step <? 0)%Z then norm_bwd len v else norm_fwd len v.
Proof.
  unfold clamp, norm_bwd, norm_fwd. destruct (Z.ltb_spec v 0).
  - destruct (Z.ltb_spec (v + len) 0); destruct (step <? 0)%Z; lia.
  - destruct (Z.leb_spec len v); destruct (step <? 0)%Z; lia.
Qed.

Lemma adj_start_norm len a step :
  adj_start len a step =
  if (step <? 0)%Z then match a with None => (len - 1)%Z | Some v => norm_bwd len v end
  else match a with None => 0%Z | Some v => norm_fwd len v end.
Proof. destruct a; [apply clamp_norm|]. simpl. destruct (step <? 0)%Z; reflexivity. Qed.

Lemma adj_stop_norm len b step :
  adj_stop len b step =
  if (step <? 0)%Z then match b with None => (-1)%Z | Some v => norm_bwd len v end
  else match b with None => len | Some v => norm_fwd len v end.
Proof. destruct b; [apply clamp_norm|]. simpl. destruct (step <? 0)%Z; reflexivity. Qed.

(* the bounds are positions in the list (forward) or one below positions (backward, where -1
   stands for "before the first element") *)
Lemma fwd_range len o d : (0 <= len)%Z -> (0 <= d <= len)%Z ->
  (0 <= match o with None => d | Some v => norm_fwd len v end <= len)%Z.
Proof. intros Hl Hd. destruct o as [v|]; [unfold norm_fwd; destruct (Z.ltb_spec v 0); lia|exact Hd]. Qed.

Lemma bwd_range len o d : (0 <= len)%Z -> (-1 <= d <= len - 1)%Z ->
  (-1 <= match o with None => d | Some v => norm_bwd len v end <= len - 1)%Z.
Proof. intros Hl Hd. destruct o as [v|]; [unfold norm_bwd; destruct (Z.ltb_spec v 0); lia|exact Hd]. Qed.

(* the count of slice_len: the least n with n * step >= b - a *)
Lemma slice_len_fwd a b step : (0 < step)%Z ->
  (b - a <= Z.of_nat (Z.to_nat (slice_len a b step)) * step)%Z
  /\ (forall m, Z.to_nat (slice_len a b step) = S m -> (Z.of_nat m * step < b - a)%Z).
Proof.
  intros Hk. unfold slice_len. destruct (Z.ltb_spec step 0); [lia|]. destruct (Z.ltb_spec a b) as [Hd|Hd].
  - pose proof (Z.mul_div_le (b - a - 1) step Hk). pose proof (Z.mul_succ_div_gt (b - a - 1) step Hk).
    pose proof (Z.div_pos (b - a - 1) step). rewrite Z2Nat.id by lia. split; [nia|].
    intros m Hm. replace (Z.of_nat m) with ((b - a - 1) / step)%Z by lia. nia.
  - split; [simpl; lia|discriminate].
Qed.

Lemma slice_len_neg a b step : (step < 0)%Z -> slice_len a b step = slice_len b a (- step).
Proof.
  intros H. unfold slice_len. destruct (Z.ltb_spec step 0); [|lia].
  destruct (Z.ltb_spec (- step) 0); [lia|reflexivity].
Qed.

Lemma slice_fwd {A} (l : list A) lo hi step (s h k : nat) :
  1 <= k -> step = Z.of_nat k -> lo = Z.of_nat s -> hi = Z.of_nat h -> h <= length l ->
  gather l (Z.to_nat (slice_len lo hi step)) lo step = every k (skipn s (firstn h l)).
Proof.
  intros Hk -> -> -> Hh.
  apply (gather_every l k 1 _ Hk (eq_sym (Z.mul_1_r _))) with (d := (Z.of_nat h - Z.of_nat s)%Z);
    [ | |apply slice_len_fwd; lia..].
  - rewrite seg_length by exact Hh. apply Nat2Z.inj_sub_max.
  - intros j Hj. rewrite seg_length in Hj by exact Hh.
    rewrite Z.mul_1_r, <- Nat2Z.inj_add, Nat2Z.id. symmetry. apply nth_error_seg. lia.
Qed.

Lemma slice_bwd {A} (l : list A) hi lo step (a h k : nat) :
  1 <= k -> step = (- Z.of_nat k)%Z -> hi = (Z.of_nat h - 1)%Z -> lo = (Z.of_nat a - 1)%Z -> h <= length l ->
  gather l (Z.to_nat (slice_len hi lo step)) hi step = every k (rev (skipn a (firstn h l))).
Proof.
  intros Hk -> -> -> Hh. rewrite slice_len_neg, Z.opp_involutive by lia.
  apply (gather_every l k (-1) _ Hk (Z.opp_eq_mul_m1 _)) with (d := (Z.of_nat h - 1 - (Z.of_nat a - 1))%Z);
    [ | |apply slice_len_fwd; lia..].
  - rewrite rev_length, seg_length by exact Hh. lia.
  - intros j Hj. rewrite rev_length in Hj. rewrite nth_error_rev by exact Hj.
    rewrite seg_length in * by exact Hh. rewrite nth_error_seg by lia. f_equal. lia.
Qed.

Theorem py_slice_correct {A} (l : list A) (a b : option Z) (step : Z) :
  py_slice l a b step = py_slice_spec l a b step.
Proof.
  unfold py_slice, py_slice_spec. cbv zeta. rewrite adj_start_norm, adj_stop_norm.
  set (len := Z.of_nat (length l)).
  assert (Hlen : (0 <= len)%Z) by apply Nat2Z.is_nonneg.
  (* on a step given by its constructor the tests of its sign compute *)
  destruct step as [|p|p]; [reflexivity| |]; simpl.
  - pose proof (fwd_range len a 0 Hlen). pose proof (fwd_range len b len Hlen).
    apply slice_fwd; lia.
  - pose proof (bwd_range len a (len - 1) Hlen). pose proof (bwd_range len b (-1) Hlen).
    apply slice_bwd; lia.
Qed.

(* the two steps the code uses, spelled out *)
Corollary py_slice_step_1 {A} (l : list A) a b :
  py_slice l a b 1 =
  skipn (Z.to_nat (match a with None => 0%Z | Some v => norm_fwd (Z.of_nat (length l)) v end))
        (firstn (Z.to_nat (match b with None => Z.of_nat (length l) | Some v => norm_fwd (Z.of_nat (length l)) v end)) l).
Proof. rewrite py_slice_correct. unfold py_slice_spec. simpl (0 <? 1)%Z. cbv iota. apply every_1. Qed.

Corollary py_slice_step_m1 {A} (l : list A) a b :
  py_slice l a b (-1) =
  rev (skipn (Z.to_nat (match b with None => (-1)%Z | Some v => norm_bwd (Z.of_nat (length l)) v end + 1))
             (firstn (Z.to_nat (match a with None => (Z.of_nat (length l) - 1)%Z | Some v => norm_bwd (Z.of_nat (length l)) v end + 1)) l)).
Proof. rewrite py_slice_correct. unfold py_slice_spec. simpl. apply every_1. Qed.

Example py_slice_spec_examples :
  py_slice_spec [0;1;2;3;4;5;6] (Some (-2)%Z) (Some (-100)%Z) (-2) = [5; 3; 1]
  /\ py_slice_spec [0;1;2;3;4;5;6] (Some 1%Z) None 3 = [1; 4]
  /\ py_slice_spec [0;1;2;3;4;5;6] None (Some 2%Z) (-1) = [6; 5; 4; 3].
Proof. repeat split; reflexivity. Qed.
