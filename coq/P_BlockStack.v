(* P_BlockStack.v — proofs about M_BlockStack (CPython 3.9/3.10): the certificate is an invariant
   of the block-stack machine; one round of the model of currently_exiting_context's walk as an
   equation (walk_S) with what a round appends (wnext); then, each by an induction over the
   fuel that rewrites with walk_S: the block the walk names is the one POP_BLOCK pops
   (walk_sound), the walk does not crash on certified code (walk_no_crash), and the fuel it is
   given is never exhausted (walk_terminates). *)
Require Import Base M_BlockStack.

Lemma st_eqb_eq a b : st_eqb a b = true -> a = b.
Proof. apply list_eqb_eq, nat_eqb_true. Qed.

Lemma edge_ok_spec ce s : edge_ok ce s = true -> cat ce (fst s) = Some (snd s).
Proof.
  unfold edge_ok. destruct (cat ce (fst s)) as [st|]; [|discriminate].
  intros H. apply st_eqb_eq in H. congruence.
Qed.

Lemma cat_some_lt ce p st : cat ce p = Some st -> p < length ce.
Proof.
  unfold cat. intros H. destruct (Nat.lt_ge_cases p (length ce)) as [L|G]; [exact L|].
  rewrite nth_overflow in H by exact G. discriminate.
Qed.

Lemma check_bcert_unit c ce p st : check_bcert c ce = true -> cat ce p = Some st ->
  p < length c
  /\ (forall e, In e (nsuccs (bat c p) p st ++ esuccs st) -> cat ce (fst e) = Some (snd e))
  /\ (bat c p = BPopBlock -> st <> []).
Proof.
  unfold check_bcert. intros H Hc. apply andb_true_iff in H as [H Hall]. apply andb_true_iff in H as [Hlen _].
  apply Nat.eqb_eq in Hlen. pose proof (cat_some_lt _ _ _ Hc) as Lt. rewrite Hlen in Lt.
  split; [exact Lt|]. rewrite forallb_forall in Hall. specialize (Hall p). rewrite in_seq in Hall.
  specialize (Hall ltac:(lia)). unfold unit_ok in Hall. rewrite Hc in Hall.
  apply andb_true_iff in Hall as [Hall Hpop]. rewrite forallb_forall in Hall. split.
  - intros e He. apply edge_ok_spec, Hall, He.
  - intros B ->. rewrite B in Hpop. discriminate.
Qed.

Theorem cert_sound c ce s :
  check_bcert c ce = true -> breach c s -> cat ce (fst s) = Some (snd s).
Proof.
  intros H R. induction R as [|s s' R IH St].
  - unfold check_bcert in H. apply andb_true_iff in H as [H _]. apply andb_true_iff in H as [_ H0].
    exact (edge_ok_spec _ _ H0).
  - destruct St as [p st s' Hin | p st s' Hin];
      apply (proj1 (proj2 (check_bcert_unit c ce p st H IH))), in_or_app; [left|right]; exact Hin.
Qed.

Lemma skipn_cons_nth (c : bcode) p : p < length c -> skipn p c = bat c p :: skipn (S p) c.
Proof.
  revert p; induction c as [|x c IH]; intros p L; simpl in L; [lia|].
  destruct p as [|p]; [reflexivity|]. simpl. unfold bat in *. simpl. apply IH. lia.
Qed.

Lemma bat_lt c p : bat c p <> BOther -> p < length c.
Proof.
  intros H. destruct (Nat.lt_ge_cases p (length c)) as [L|G]; [exact L|].
  unfold bat in H. rewrite nth_overflow in H by exact G. contradiction.
Qed.

Lemma skip_ext_ext c p : bat c p = BExt -> skip_ext c p = skip_ext c (S p).
Proof.
  intros B. assert (L : p < length c) by (apply bat_lt; rewrite B; discriminate).
  unfold skip_ext. rewrite (skipn_cons_nth c p L), B. simpl. lia.
Qed.

Lemma skip_ext_noext c p : bat c p <> BExt -> skip_ext c p = p.
Proof.
  intros B. unfold skip_ext. destruct (Nat.lt_ge_cases p (length c)) as [L|G].
  - rewrite (skipn_cons_nth c p L). destruct (bat c p); try contradiction; simpl; lia.
  - rewrite skipn_all2 by exact G. simpl. lia.
Qed.

Lemma ext_steps c st k : forall p, ext_run (skipn p c) = k -> breach c (p, st) -> breach c (p + k, st).
Proof.
  induction k as [|k IH]; intros p E R.
  - rewrite Nat.add_0_r. exact R.
  - destruct (Nat.lt_ge_cases p (length c)) as [L|G].
    + rewrite (skipn_cons_nth c p L) in E. simpl in E.
      destruct (bat c p) eqn:B; try discriminate.
      injection E as E. replace (p + S k) with (S p + k) by lia. apply IH; [exact E|].
      eapply BR_step; [exact R|]. apply BS_normal. rewrite B. simpl. left. f_equal. lia.
    + rewrite skipn_all2 in E by exact G. discriminate.
Qed.

Lemma skip_ext_reach c p st : breach c (p, st) -> breach c (skip_ext c p, st).
Proof. intros R. unfold skip_ext. apply ext_steps; [reflexivity|exact R]. Qed.

Definition all_reach (c : bcode) (todo : list (nat * list nat)) : Prop :=
  forall it, In it todo -> breach c it.

Lemma all_reach_app c a b : all_reach c a -> all_reach c b -> all_reach c (a ++ b).
Proof. intros A B it H. apply in_app_or in H as [H|H]; auto. Qed.

Lemma is_pop_block_eq i : is_pop_block i = true -> i = BPopBlock.
Proof. destruct i; try discriminate; reflexivity. Qed.

Lemma jumps_reach c p st :
  breach c (p, st) -> all_reach c (map (fun t => (t, st)) (jumps (bat c p))).
Proof.
  intros R it H. destruct (bat c p) eqn:B; simpl in H; try contradiction; destruct H as [<-|[]];
    try (eapply BR_step; [exact R|]; apply BS_normal; rewrite B; left; reflexivity).
  (* SETUP: the handler is entered with the block already popped: push, then raise *)
  eapply BR_step; [eapply BR_step; [exact R|]|].
  - apply BS_normal. rewrite B. left. reflexivity.
  - apply BS_raise. unfold esuccs, last_opt. rewrite rev_unit. simpl.
    rewrite removelast_last. left. reflexivity.
Qed.

Definition wnext (c : bcode) (p : nat) (st : list nat) : list (nat * list nat) :=
  let i := bat c p in
  map (fun t => (t, st)) (jumps i)
  ++ (if no_fall i then [] else
      [(p + 1, match i with BSetup _ t => st ++ [t] | BPopBlock => removelast st | _ => st end)]).

Definition is_nil {A} (l : list A) : bool := match l with [] => true | _ => false end.

Lemma walk_S f c pop p0 st rest seen :
  walk (S f) c pop ((p0, st) :: rest) seen =
  if bit_get seen p0 then walk f c pop rest seen else
  if (length c <=? p0) || (length c <=? skip_ext c p0) then WCrash else
  let p := skip_ext c p0 in
  if is_pop_block (bat c p) && (p =? pop)
  then match last_opt st with Some h => WFound h | None => WCrash end
  else if is_pop_block (bat c p) && is_nil st then WCrash
  else walk f c pop (rest ++ wnext c p st) (bit_set seen p0).
Proof.
  cbn [walk]. destruct (bit_get seen p0); [reflexivity|]. destruct (length c <=? p0); [reflexivity|].
  cbn [orb]. destruct (length c <=? skip_ext c p0); [reflexivity|]. unfold wnext. cbv zeta.
  destruct (bat c (skip_ext c p0)); try reflexivity.
  cbn [is_pop_block andb jumps map app no_fall]. destruct (skip_ext c p0 =? pop); [reflexivity|].
  destruct st; reflexivity.
Qed.

Lemma wnext_reach c p st :
  breach c (p, st) -> is_pop_block (bat c p) && is_nil st = false -> all_reach c (wnext c p st).
Proof.
  intros R NE. apply all_reach_app; [exact (jumps_reach c p st R)|].
  destruct (no_fall (bat c p)) eqn:NF; [intros it []|intros it [<-|[]]]. eapply BR_step; [exact R|]. apply BS_normal.
  destruct (bat c p); try discriminate; try (left; reflexivity); try (right; left; reflexivity).
  destruct st; [discriminate|left; reflexivity].
Qed.

Lemma jumps_le1 i : length (jumps i) <= 1.
Proof. destruct i; simpl; lia. Qed.

Lemma wnext_le2 c p st : length (wnext c p st) <= 2.
Proof.
  unfold wnext. rewrite app_length, map_length. pose proof (jumps_le1 (bat c p)).
  destruct (no_fall _); simpl; lia.
Qed.

(* While the queue holds states of the machine, an answer names the block on top at [pop] in some
   execution, and a crash has a cause some execution runs into: a unit past the end of the code, or
   a POP_BLOCK with no block to pop. *)
Lemma walk_reach c pop : forall fuel todo seen, all_reach c todo ->
  match walk fuel c pop todo seen with
  | WFound h => exists st, breach c (pop, st) /\ last_opt st = Some h /\ bat c pop = BPopBlock
  | WCrash => exists p st, breach c (p, st) /\ (length c <= p \/ bat c p = BPopBlock /\ st = [])
  | _ => True
  end.
Proof.
  induction fuel as [|f IH]; intros todo seen A; [exact I|].
  destruct todo as [|[p0 st] rest]; [exact I|]. rewrite walk_S.
  assert (Arest : all_reach c rest) by (intros it H; apply A; right; exact H).
  destruct (bit_get seen p0); [apply IH, Arest|].
  assert (R0 : breach c (p0, st)) by (apply A; left; reflexivity).
  assert (R : breach c (skip_ext c p0, st)) by (apply skip_ext_reach, R0).
  destruct (length c <=? p0) eqn:L0; [exists p0, st; split; [exact R0|left; apply Nat.leb_le, L0]|].
  destruct (length c <=? skip_ext c p0) eqn:L1; cbn [orb];
    [exists (skip_ext c p0), st; split; [exact R|left; apply Nat.leb_le, L1]|]. cbv zeta.
  destruct (is_pop_block _ && (_ =? pop)) eqn:E.
  - apply andb_true_iff in E as [B E]. apply is_pop_block_eq in B. apply Nat.eqb_eq in E. rewrite E in *.
    destruct (last_opt st) as [h|] eqn:L; [exists st; auto|].
    exists pop, st. split; [exact R|right; split; [exact B|exact (last_opt_None st L)]].
  - destruct (is_pop_block _ && is_nil st) eqn:NE.
    + apply andb_true_iff in NE as [B N]. apply is_pop_block_eq in B. exists (skip_ext c p0), st.
      split; [exact R|right; split; [exact B|destruct st; [reflexivity|discriminate]]].
    + apply IH, all_reach_app; [exact Arest|apply wnext_reach; assumption].
Qed.

Lemma all_reach_start c : all_reach c [(0, [])].
Proof. intros it [<-|[]]. constructor. Qed.

Theorem walk_sound c ce pop fuel seen h :
  check_bcert c ce = true ->
  walk fuel c pop [(0, [])] seen = WFound h ->
  bat c pop = BPopBlock /\
  (exists st, breach c (pop, st)) /\
  forall st, breach c (pop, st) -> last_opt st = Some h.
Proof.
  intros Hc W. pose proof (walk_reach c pop fuel _ seen (all_reach_start c)) as H. rewrite W in H.
  destruct H as (st0 & R0 & L0 & B). split; [exact B|]. split; [eauto|].
  intros st R. pose proof (cert_sound c ce _ Hc R0) as C0. pose proof (cert_sound c ce _ Hc R) as C1.
  simpl in *. congruence.
Qed.

Lemma walk_no_crash c ce pop : check_bcert c ce = true -> forall fuel todo seen,
  all_reach c todo -> walk fuel c pop todo seen <> WCrash.
Proof.
  intros Hc fuel todo seen A W. pose proof (walk_reach c pop fuel todo seen A) as H. rewrite W in H.
  destruct H as (p & st & R & H).
  destruct (check_bcert_unit c ce p st Hc (cert_sound c ce (p, st) Hc R)) as (Lt & _ & NE).
  destruct H as [L|[B E]]; [lia|exact (NE B E)].
Qed.

(* The `while todo:` loop of the code terminates because every iteration either discards an item
   whose offset was seen or marks a new offset seen and appends at most two items.  In the model:
   the fuel handed to [walk] by [exiting310] is never exhausted. *)
Fixpoint unseen (seen : list bool) (n : nat) : nat :=
  match n with
  | 0 => 0
  | S n' => match seen with
            | [] => S n'
            | b :: r => (if b then 0 else 1) + unseen r n'
            end
  end.

Lemma unseen_nil n : unseen [] n = n.
Proof. destruct n; reflexivity. Qed.

Lemma unseen_cons b r n : unseen (b :: r) (S n) = (if b then 0 else 1) + unseen r n.
Proof. reflexivity. Qed.

Lemma unseen_set : forall p seen n, p < n -> bit_get seen p = false ->
  unseen (bit_set seen p) n + 1 = unseen seen n.
Proof.
  induction p as [|p IH]; intros seen n L G; destruct n as [|n]; try lia.
  - destruct seen as [|b r]; cbn [bit_set bit_get] in *.
    + rewrite unseen_cons, !unseen_nil. lia.
    + subst b. rewrite !unseen_cons. lia.
  - destruct seen as [|b r]; cbn [bit_set bit_get] in *.
    + assert (G0 : bit_get [] p = false) by (destruct p; reflexivity).
      specialize (IH [] n ltac:(lia) G0). rewrite unseen_cons, !unseen_nil in *. lia.
    + specialize (IH r n ltac:(lia) G). rewrite !unseen_cons. lia.
Qed.

Lemma walk_fuel_enough c pop : forall fuel todo seen,
  length todo + 2 * unseen seen (length c) < fuel -> walk fuel c pop todo seen <> WOutOfFuel.
Proof.
  induction fuel as [|f IH]; intros todo seen M; [lia|].
  destruct todo as [|[p0 st] rest]; [discriminate|]. rewrite walk_S. cbn [length] in M.
  destruct (bit_get seen p0) eqn:G; [apply IH; lia|].
  destruct (length c <=? p0) eqn:L0; [discriminate|]. apply Nat.leb_gt in L0. cbn [orb].
  destruct (length c <=? skip_ext c p0); [discriminate|]. cbv zeta.
  destruct (_ && (_ =? _)); [destruct (last_opt st); discriminate|].
  destruct (_ && is_nil st); [discriminate|].
  apply IH. pose proof (unseen_set p0 seen (length c) L0 G). pose proof (wnext_le2 c (skip_ext c p0) st).
  rewrite app_length. lia.
Qed.

Lemma walk_terminates c pop : walk (walk_fuel c) c pop [(0, [])] [] <> WOutOfFuel.
Proof. apply walk_fuel_enough. rewrite unseen_nil. unfold walk_fuel. simpl. lia. Qed.

(* with_info unit by unit: the two steps of the induction over the code in C01_py310_with_info *)
Lemma bat_cons_ex x c K :
  (exists p, p < length (x :: c) /\ bat (x :: c) p = K) <-> x = K \/ exists p, p < length c /\ bat c p = K.
Proof.
  split.
  - intros ([|p] & L & B); [left; exact B|right; exists p; split; [simpl in L; lia|exact B]].
  - intros [->|(p & L & B)]; [exists 0|exists (S p)]; split; simpl; auto; lia.
Qed.

Lemma with_info_cons x c h a :
  In (h, a) (with_info (x :: c)) <-> x = BSetup (if a then WAsyncWith else WWith) h \/ In (h, a) (with_info c).
Proof.
  destruct a, x as [|[] t| | | | | | | | | | | | | | ]; cbn [with_info In];
    try (split; [intros H; right; exact H|intros [E|H]; [discriminate E|exact H]]).
  all: split; intros [E|H]; auto; try discriminate; left; congruence.
Qed.

(* ties [scan] to the walk's [pop] (C01_py310_exit_call_resolved) *)
Lemma scan_pop c lasti a pop : scan c lasti = ScPop a pop -> bat c pop = BPopBlock.
Proof.
  unfold scan. cbv zeta.
  (* whatever the await prefix was: [ScPop] is only answered behind the test for POP_BLOCK *)
  match goal with |- match ?x with None => _ | _ => _ end = _ -> _ => destruct x as [[p|]|] end;
    try discriminate.
  destruct (is_wes (bat c p)); [discriminate|]. destruct (_ || _); [discriminate|].
  match goal with |- (if is_pop_block (bat c ?q) then _ else _) = _ -> _ =>
    destruct (bat c q) eqn:B; try discriminate end.
  intros [= <- <-]. exact B.
Qed.

(* 3.10 code of `with m: body`: SETUP_WITH, body, POP_BLOCK, the inlined exit call, the handler at 9 *)
Definition ex_code : bcode :=
  [BSetup WWith 9; BOther; BPopBlock; BLoadConst true; BDupTop; BDupTop; BCallFunction; BOther; BStop;
   BWithExceptStart; BStop].
Definition ex_cert : bcert :=
  [Some []; Some [9]; Some [9]; Some []; Some []; Some []; Some []; Some []; Some []; Some []; Some []].

Example ex_cert_checks : check_bcert ex_code ex_cert = true.
Proof. vm_compute. reflexivity. Qed.
Example ex_exit_call : exiting310 ex_code 6 = EExit false 9.
Proof. vm_compute. reflexivity. Qed.
Example ex_handler : exiting310 ex_code 9 = EExit false 9.
Proof. vm_compute. reflexivity. Qed.
Example ex_body : exiting310 ex_code 1 = ENone.
Proof. vm_compute. reflexivity. Qed.
