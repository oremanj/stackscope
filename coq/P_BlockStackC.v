(* P_BlockStackC.v — the control-flow graph the block-stack walk (CPython 3.9/3.10) explores.
   Completeness: when the walk gives up ("POP_BLOCK ... doesn't appear reachable", an
   InspectionWarning), no path of that graph leads from offset 0 to that POP_BLOCK.  And the
   block-stack machine never leaves the graph, so the warning is not given for a POP_BLOCK that
   some execution reaches. *)
Require Import Base M_BlockStack P_BlockStack.

(* the walk's graph on queue offsets (a SETUP_* counts as a jump to its handler) *)
Definition osuccs (c : bcode) (p0 : nat) : list nat :=
  let p := skip_ext c p0 in
  let i := bat c p in
  jumps i ++ (if no_fall i then [] else [p + 1]).

Inductive oreach (c : bcode) : nat -> Prop :=
  | OR_start : oreach c 0
  | OR_step q q' : oreach c q -> In q' (osuccs c q) -> oreach c q'.

Definition target (c : bcode) (pop q : nat) : Prop :=
  bat c (skip_ext c q) = BPopBlock /\ skip_ext c q = pop.

Lemma bit_get_nil q : bit_get [] q = false.
Proof. destruct q; reflexivity. Qed.

Lemma bit_get_set : forall l p q, bit_get (bit_set l p) q = if q =? p then true else bit_get l q.
Proof.
  induction l as [|b l IH]; intros p q.
  - revert q. induction p as [|p IHp]; intros q; destruct q as [|q]; cbn [bit_set bit_get Nat.eqb]; auto.
    + rewrite IHp. rewrite ?bit_get_nil. reflexivity.
  - destruct p as [|p], q as [|q]; cbn [bit_set bit_get Nat.eqb]; auto.
Qed.

Definition seen_in (seen : list bool) (q : nat) : Prop := bit_get seen q = true.

Definition known (seen : list bool) (todo : list (nat * list nat)) (q : nat) : Prop :=
  seen_in seen q \/ In q (map fst todo).

(* invariant of the walk while it has not answered; with an empty queue it says that seen
   contains 0 and is closed under osuccs *)
Definition winv (c : bcode) (pop : nat) (todo : list (nat * list nat)) (seen : list bool) : Prop :=
  known seen todo 0 /\
  forall q, seen_in seen q ->
    ~ target c pop q /\ forall q', In q' (osuccs c q) -> known seen todo q'.

Lemma wnext_osuccs c p0 st : map fst (wnext c (skip_ext c p0) st) = osuccs c p0.
Proof.
  unfold wnext, osuccs. cbv zeta. rewrite map_app, map_map, map_id.
  destruct (no_fall _); reflexivity.
Qed.

Lemma known_step p0 (st : list nat) rest items seen q :
  known seen ((p0, st) :: rest) q -> known (bit_set seen p0) (rest ++ items) q.
Proof.
  unfold known, seen_in. rewrite bit_get_set, map_app, in_app_iff. intros [H|[<-|H]]; auto.
  - left. rewrite H. destruct (q =? p0); reflexivity.
  - left. cbn [fst]. rewrite Nat.eqb_refl. reflexivity.
Qed.

Lemma known_skip p0 (st : list nat) rest seen q :
  seen_in seen p0 -> known seen ((p0, st) :: rest) q -> known seen rest q.
Proof. intros S [H|[<-|H]]; [left|left|right]; assumption. Qed.

Lemma winv_step c pop p0 (st : list nat) rest seen (items : list (nat * list nat)) :
  winv c pop ((p0, st) :: rest) seen ->
  ~ target c pop p0 ->
  map fst items = osuccs c p0 ->
  winv c pop (rest ++ items) (bit_set seen p0).
Proof.
  intros [I0 I1] NT MI. split; [exact (known_step _ _ _ _ _ _ I0)|].
  intros q Hq. unfold seen_in in Hq. rewrite bit_get_set in Hq. destruct (q =? p0) eqn:E.
  - apply Nat.eqb_eq in E. subst q. split; [exact NT|].
    intros q' Hq'. right. rewrite map_app, MI. apply in_or_app. right. exact Hq'.
  - destruct (I1 q Hq) as [NTq Sq]. split; [exact NTq|].
    intros q' Hq'. exact (known_step _ _ _ _ _ _ (Sq q' Hq')).
Qed.

Lemma winv_skip c pop p0 (st : list nat) rest seen :
  winv c pop ((p0, st) :: rest) seen -> seen_in seen p0 -> winv c pop rest seen.
Proof.
  intros [I0 I1] S. split; [exact (known_skip _ _ _ _ _ S I0)|].
  intros q Hq. destruct (I1 q Hq) as [NT Sq]. split; [exact NT|].
  intros q' Hq'. exact (known_skip _ _ _ _ _ S (Sq q' Hq')).
Qed.

Lemma winv_start c pop : winv c pop [(0, [])] [].
Proof.
  split; [right; left; reflexivity|]. intros q Hq. unfold seen_in in Hq. rewrite bit_get_nil in Hq. discriminate.
Qed.

Lemma walk_notfound c pop : forall fuel todo seen,
  winv c pop todo seen -> walk fuel c pop todo seen = WNotFound ->
  forall q, oreach c q -> ~ target c pop q.
Proof.
  induction fuel as [|f IH]; intros todo seen I W; [discriminate|].
  destruct todo as [|[p0 st] rest]; [clear W|].
  - (* nothing left: the seen set is closed under successors and contains 0 *)
    destruct I as [I0 I1]. assert (All : forall q, oreach c q -> seen_in seen q).
    { intros q R. induction R as [|q q' R IHR Hin].
      - destruct I0 as [H|[]]. exact H.
      - destruct (I1 q IHR) as [_ Sq]. destruct (Sq q' Hin) as [H|[]]. exact H. }
    intros q R. apply (I1 q (All q R)).
  - rewrite walk_S in W.
    destruct (bit_get seen p0) eqn:G; [eapply IH; [eapply winv_skip; eauto|exact W]|].
    destruct (_ || _); [discriminate|]. cbv zeta in W.
    destruct (_ && (_ =? pop)) eqn:E; [destruct (last_opt st); discriminate|].
    destruct (_ && is_nil st); [discriminate|].
    eapply IH; [|exact W]. eapply winv_step; [exact I| |apply wnext_osuccs].
    intros [T1 T2]. rewrite T1, T2, Nat.eqb_refl in E. discriminate.
Qed.

(* the machine steps through an EXTENDED_ARG prefix unit by unit, the walk skips it at once:
   p is q or lies in the prefix that starts at q *)
Inductive inrun (c : bcode) (q : nat) : nat -> Prop :=
  | IR_here : inrun c q q
  | IR_ext p : inrun c q p -> bat c p = BExt -> inrun c q (S p).

Lemma inrun_skip c q p : inrun c q p -> skip_ext c q = skip_ext c p.
Proof. induction 1 as [|p R IH B]; [reflexivity|]. rewrite IH. apply skip_ext_ext. exact B. Qed.

Lemma Forall_removelast {A} (P : A -> Prop) l : Forall P l -> Forall P (removelast l).
Proof.
  induction l as [|x l IH]; intros H; [constructor|]. simpl. destruct l as [|y l]; [constructor|].
  inversion H; subst. constructor; [assumption|]. apply IH. assumption.
Qed.

Lemma nsuccs_wnext c p st : incl (nsuccs (bat c p) p st) (wnext c p st).
Proof.
  unfold wnext. cbv zeta. destruct (bat c p); cbn [nsuccs jumps map app no_fall];
    try apply incl_refl; try apply incl_tl, incl_refl.
  destruct st; [apply incl_nil_l|apply incl_refl].
Qed.

Lemma wnext_stack (P : nat -> Prop) c p st :
  Forall P st -> (forall t, In t (jumps (bat c p)) -> P t) ->
  forall it, In it (wnext c p st) -> Forall P (snd it).
Proof.
  intros Fs Fj it H. unfold wnext in H. apply in_app_or in H as [H|H].
  - apply in_map_iff in H as (t & <- & _). exact Fs.
  - destruct (no_fall (bat c p)); [destruct H|]. destruct H as [<-|[]]. cbn [snd].
    destruct (bat c p); try exact Fs.
    + apply Forall_app. split; [exact Fs|]. constructor; [apply Fj; left; reflexivity|constructor].
    + apply Forall_removelast, Fs.
Qed.

(* the machine stays in the walk's graph; the handlers on its block stack are graph offsets, so
   the exception edge stays inside too *)
Definition rinv (c : bcode) (s : bstate) : Prop :=
  (exists q, oreach c q /\ inrun c q (fst s)) /\ Forall (oreach c) (snd s).

Lemma breach_rinv c s : breach c s -> rinv c s.
Proof.
  induction 1 as [|s s' R IH St].
  - split; [exists 0; split; constructor|constructor].
  - destruct IH as [(q & Oq & Run) Fs]. destruct St as [p st [p' st'] Hin | p st s' Hin]; simpl in *.
    + assert (D : bat c p = BExt \/ bat c p <> BExt) by (destruct (bat c p); auto; right; discriminate).
      destruct D as [B|B].
      * rewrite B in Hin. destruct Hin as [[= <- <-]|[]].
        split; [|exact Fs]. exists q. split; [exact Oq|]. simpl. rewrite Nat.add_1_r.
        constructor; assumption.
      * (* q stands for p in the walk's graph: the items of a round at q are successors of q *)
        assert (SK : skip_ext c q = p) by (rewrite (inrun_skip c q p Run); apply skip_ext_noext; exact B).
        assert (OS : forall x, In x (osuccs c q) -> oreach c x) by (intros x Hx; exact (OR_step c q x Oq Hx)).
        apply nsuccs_wnext in Hin. rewrite <- SK in Hin. split.
        -- exists p'. split; [|constructor]. apply OS. rewrite <- (wnext_osuccs c q st).
           exact (in_map fst _ _ Hin).
        -- refine (wnext_stack (oreach c) c _ st Fs _ _ Hin). intros t Ht. apply OS, in_or_app. left. exact Ht.
    + unfold esuccs in Hin. destruct (last_opt st) as [h|] eqn:L; [|contradiction].
      destruct Hin as [<-|[]]. simpl. split; [|apply Forall_removelast; exact Fs].
      exists h. split; [|constructor]. rewrite Forall_forall in Fs. apply Fs. rewrite (last_opt_Some _ _ L). apply in_or_app. right. left. reflexivity.
Qed.

(* Every POP_BLOCK the block-stack machine can reach is reachable in the walk's graph; hence, with
   [walk_notfound], the model of the 3.9/3.10 branch never gives the "doesn't appear reachable"
   warning for a POP_BLOCK that some execution reaches. *)
Theorem reachable_pop_in_walk_graph c pop st :
  breach c (pop, st) -> bat c pop = BPopBlock ->
  exists q, oreach c q /\ skip_ext c q = pop.
Proof.
  intros R B. destruct (breach_rinv c _ R) as [(q & Oq & Run) _]. simpl in Run.
  exists q. split; [exact Oq|]. rewrite (inrun_skip c q pop Run). apply skip_ext_noext. rewrite B. discriminate.
Qed.

(* non-vacuity: dead code behind a raise (what the 3.9 compiler leaves after `raise E()` at the end
   of a with body): the POP_BLOCK at unit 2 is unreachable and the walk gives up *)
Definition dead_code : bcode :=
  [BSetup WWith 8; BStop; BPopBlock; BLoadConst true; BDupTop; BDupTop; BCallFunction; BStop; BWithExceptStart; BStop].
Example dead_walk : walk (walk_fuel dead_code) dead_code 2 [(0, [])] [] = WNotFound.
Proof. vm_compute. reflexivity. Qed.
Example dead_exit : exiting310 dead_code 6 = EWarn.
Proof. vm_compute. reflexivity. Qed.
