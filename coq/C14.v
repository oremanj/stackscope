(* C14 — Trio: the extracted tree is isomorphic to the real task tree, across thread hops. *)
Require Import Base M_TaskTree P_TaskTree.
From SS.gen Require Import SrcFacts.

(* For ALL task trees whose frames are hop-free (plain / hidden / trap frames, nothing opening a
   nursery after the trap) and whose per-frame contexts agree with Trio's own tables
   nurs_of = task.child_nurseries, kids_of = nursery.child_tasks (the analysis is exact):
   extract(task, recurse_child_tasks=True) is isomorphic to Trio's tree — every task stack
   shows exactly its open nurseries, each once, in nesting order, each with exactly its child
   tasks matched by root and in order, each child extracted recursively.  Holds whether the
   task is suspended or is the running caller. *)
Theorem C14_iso : forall nurs_of kids_of run t,
  wf_task nurs_of kids_of t -> iso nurs_of kids_of (extract true (RTask run t)).
Proof.
  intros nurs_of kids_of run t H. apply (proj1 (wf_hwf _ _)) in H.
  rewrite (extract_ext_child _ _ _ run t H).
  exact (iso_child nurs_of kids_of (fun _ => []) nurs_of (fun r => eq_sym (app_nil_r _)) t H).
Qed.
Print Assumptions C14_iso.

Example C14_iso_hyp : wf_task (tlookup ex_nurs) (tlookup ex_kids) ex_tree.
Proof. simpl. repeat split; reflexivity. Qed.

(* recurse_child_tasks=False: same nurseries, and every child is a frameless stub that carries
   only the root of the corresponding child task ... *)
Theorem C14_stub : forall nurs_of kids_of run t,
  wf_task nurs_of kids_of t -> iso_stub nurs_of kids_of (extract false (RTask run t)).
Proof.
  intros nurs_of kids_of run [r fs] [Hs [Hq [Hn Hw]]]. destruct (simple_hops fs Hs) as [Hp [Hf _]].
  simpl. rewrite frames_of_task by assumption.
  split; [rewrite simple_nids; assumption | apply (stub_frames nurs_of); assumption].
Qed.
Print Assumptions C14_stub.

(* ... at every depth, for EVERY world (any frame kinds, any nesting of thread hops, task or
   thread root): no context of any frame of the result has a child with frames. *)
Theorem C14_stub_everywhere : forall r, stubs_only (extract false r).
Proof. intros [run [r fs]|tid fs]; apply stubs_walk. Qed.
Print Assumptions C14_stub_everywhere.

(* Thread hops, all alternation depths: for every ping-pong world (task segments and thread
   segments nested through to_thread.run_sync / from_thread.run to any depth, observed from
   outside or from inside the innermost serving task, rooted at a task or at a foreign thread)
   outside the shape of finding F14, the frames of extract() are exactly [splice]: the worker
   thread's frames in place of the wait, a thread inside from_thread.run continued into the
   task serving it. *)
Theorem C14_hops_n : forall rc r,
  (match r with
   | RTask _ t => pp_task (task_frames t) && f14_free (task_frames t)
   | RThread _ fs => pp_thread false fs && f14_free fs
   end) = true ->
  match extract rc r with Stack _ fs => ids fs = splice r end.
Proof.
  intros rc [run [x fs]|tid fs] H; apply andb_true_iff in H as [Hp Hf]; simpl.
  - rewrite frames_of_task by assumption. apply ids_sp_task.
  - rewrite frames_of_thread by assumption. apply ids_sp_thread.
Qed.
Print Assumptions C14_hops_n.

(* the same, unfolded for the explicit chains of n alternations (l lists, from the outside in,
   whether each from_thread.run re-enters the host task or is served by a system task) *)
Theorem C14_pingpong_n : forall l b rc inc, no_f14 l = true ->
  ids (frames_of rc inc (pingpong l b)) = pingpong_ids l b.
Proof.
  intros l b rc inc H. rewrite frames_of_task, ids_sp_task by auto using pingpong_pp, pingpong_f14.
  apply pingpong_splice.
Qed.
Print Assumptions C14_pingpong_n.

Example C14_hops_hyp :
  no_f14 [true; true; false; false] = true /\
  pp_task (pingpong [true; true; false; false] 0) && f14_free (pingpong [true; true; false; false] 0) = true /\
  pp_thread false (fl [P 100; Frame 101 (KFromSys true (Task 7 (pingpong [false; false] 0))) CNil; P 102]) &&
  f14_free (fl [P 100; Frame 101 (KFromSys true (Task 7 (pingpong [false; false] 0))) CNil; P 102]) = true.
Proof. repeat split; vm_compute; reflexivity. Qed.

(* known finding F14: the excluded shape really fails — a token hop whose serving task goes on
   with a host re-entry is well-formed, but the model (= the code) stops at the token hop
   instead of continuing into the serving task *)
Theorem C14_F14_refuted : exists l,
  no_f14 l = false /\ pp_task (pingpong l 0) = true /\
  ids (frames_of true true (pingpong l 0)) <> splice_task (pingpong l 0).
Proof.
  exists [false; true]. destruct f14_witness as [A [B [C D]]].
  split; [exact A|]. split; [exact B|]. rewrite C, D. discriminate.
Qed.
Print Assumptions C14_F14_refuted.

(* the boolean check that the generated case files evaluate on the OBSERVED stacks against
   Trio's own tables is sound for the isomorphism relation of C14_iso *)
Theorem C14_iso_check_sound : forall N K s, iso_b N K s = true -> iso (tlookup N) (tlookup K) s.
Proof. exact iso_b_sound. Qed.
Print Assumptions C14_iso_check_sound.

(* Tree isomorphism and thread hops together.  For EVERY world whose tasks may be parked
   anywhere in to_thread/from_thread chains of any depth outside the F14 shape (hwf_task: per
   task a well-typed hop chain, own frames carrying exactly task.child_nurseries, nothing hidden
   opening a nursery, the system tasks it continues into being those of cont_of; every nursery
   context anywhere holding exactly nursery.child_tasks; hereditarily for all children):
   extract(task, recurse_child_tasks=True) is isomorphic to Trio's tree — every stack shows the
   nurseries of its task followed by those of the tasks it continues into, each once, in order,
   with exactly its child tasks by root, recursively — AND its frame series is the splice of
   its hops.  With cont_of = (fun _ => []) and hop-free frames this is C14_iso. *)
Theorem C14_iso_hops : forall nurs_of kids_of cont_of run t,
  hwf_task nurs_of kids_of cont_of t ->
  iso (nurs_along nurs_of cont_of) kids_of (extract true (RTask run t)) /\
  match extract true (RTask run t) with Stack _ fs => ids fs = splice_task (task_frames t) end.
Proof.
  intros nurs_of kids_of cont_of run t H. rewrite (extract_ext_child _ _ _ run t H).
  split; [exact (iso_child _ _ _ _ (fun _ => eq_refl) t H) | exact (ext_child_ids _ _ _ t H)].
Qed.
Print Assumptions C14_iso_hops.

(* the same for every child stack of the result: the children ARE ext_child true kid
   (ext_tasks_map) and hwf_task is hereditary by definition *)
Theorem C14_iso_hops_child : forall nurs_of kids_of cont_of t,
  hwf_task nurs_of kids_of cont_of t ->
  iso (nurs_along nurs_of cont_of) kids_of (ext_child true t) /\
  match ext_child true t with Stack _ fs => ids fs = splice_task (task_frames t) end.
Proof.
  intros nurs_of kids_of cont_of t H.
  split; [exact (iso_child _ _ _ _ (fun _ => eq_refl) t H) | exact (ext_child_ids _ _ _ t H)].
Qed.
Print Assumptions C14_iso_hops_child.

Example C14_iso_hops_hyp :
  hwf_task (tlookup exh_nurs) (tlookup exh_kids) (tlookup exh_cont) exh_tree.
Proof. cbv -[tlookup]. repeat split; try reflexivity; repeat constructor. Qed.

(* the model's one approximation — a to_thread.run_sync frame that ends its segment sees
   next_inner = None — cannot be observed on ping-pong worlds: with the lookahead explicit and
   ARBITRARY (walkL lk) the extracted frames are the same *)
Theorem C14_lookahead_irrelevant : forall lk rc r,
  (match r with
   | RTask _ t => pp_task (task_frames t) && f14_free (task_frames t)
   | RThread _ fs => pp_thread false fs && f14_free fs
   end) = true ->
  match r with
  | RTask run t => fst (walkL lk rc (negb run) base_depth base_depth None (task_frames t))
  | RThread _ fs => fst (walkL lk rc false base_depth base_depth None fs)
  end = match extract rc r with Stack _ fs => fs end.
Proof.
  intros lk rc [run [x fs]|tid fs] H; apply andb_true_iff in H as [Hp Hf]; simpl.
  - rewrite walkL_task, frames_of_task by assumption. reflexivity.
  - rewrite walkL_thread, frames_of_thread by assumption. reflexivity.
Qed.
Print Assumptions C14_lookahead_irrelevant.

(* "with no error ... for any depth": the runaway-unwrap guard of extract_iter (constant and
   reset-at-a-Frame both regenerated from the source) is never reached by a task's chain, however
   many nested awaits / ping-pong levels it has — every coroutine link yields a frame, which
   resets the counter.  Without the reset the guard would cap the chain at its constant. *)
Theorem C14_guard_progress : forall n,
  guard_run SrcFacts.unwrap_guard SrcFacts.c14_guard_reset_on_frame 0 (task_chain n) = false.
Proof. exact (guard_progress SrcFacts.unwrap_guard SrcFacts.c14_guard_reset_on_frame eq_refl eq_refl). Qed.
Print Assumptions C14_guard_progress.

(* ... without the reset: a chain of at least [g] frames trips a guard of [g] *)
Theorem C14_guard_needs_reset : forall g n, g <= n -> guard_run g false 0 (task_chain n) = true.
Proof.
  intros g n H. apply guard_noreset; [lia|]. unfold task_chain. simpl. rewrite repeat_length. lia.
Qed.
Print Assumptions C14_guard_needs_reset.

(* what a passing case of a generated file means: the Stack observed from the real extract()
   equals the model's result on the abstracted world, and (tc_iso) is isomorphic to Trio's tables *)
Theorem C14_case_sound : forall k, case_ok k = true ->
  tc_obs k = extract (tc_rc k) (tc_root k) /\
  (tc_iso k = true -> iso (tlookup (tc_nurs k)) (tlookup (tc_kids k)) (tc_obs k)) /\
  tc_clean k = true.
Proof.
  intros k H. unfold case_ok in H.
  apply andb_true_iff in H as [H H3]. apply andb_true_iff in H as [H1 H2].
  split; [symmetry; apply stack_eqb_eq; exact H1|]. split.
  - intros E. rewrite E in H2. apply iso_b_sound. exact H2.
  - rewrite root_chain_clean in H3. simpl in H3. apply Bool.eqb_prop in H3. exact H3.
Qed.
Print Assumptions C14_case_sound.

(* facts regenerated from /repo's source on every run (harness/facts_c14.py), on which the model's
   reading of the code rests beyond what input/output comparison pins down: elaborate_nursery
   builds the children with extract_child(child, for_task=True) over context.obj.child_tasks
   after setting obj to manager._nursery; extract_child's stub rule is
   `for_task and not recurse_child_tasks => Stack(root=stackitem, frames=[])`; each of the four
   trap names is a string constant of its own in the tuple customized hide+prune; ExtractOptions
   (which carries recurse_child_tasks to extract_child) shares nothing mutable between threads; the replace/insert decision of the to_thread glue tests
   the name "wait_task_rescheduled". *)
Theorem C14_source_facts :
  SrcFacts.c14_children_for_task = true /\ SrcFacts.c14_stub_rule = true /\ SrcFacts.c14_wait_name = true /\
  SrcFacts.c14_options_per_thread = true /\
  SrcFacts.c14_trap_cancel_shielded_checkpoint = true /\ SrcFacts.c14_trap_wait_task_rescheduled = true /\
  SrcFacts.c14_trap_temporarily_detach_coroutine_object = true /\
  SrcFacts.c14_trap_permanently_detach_coroutine_object = true.
Proof. exact (conj eq_refl (conj eq_refl (conj eq_refl (conj eq_refl (conj eq_refl (conj eq_refl (conj eq_refl eq_refl))))))). Qed.
Print Assumptions C14_source_facts.
