(* P_Purity.v — what one extraction does to stackscope's hidden state (M_Purity.extract_hidden),
   field by field; hence a second extraction in the same environment changes nothing. *)
Require Import Base M_Purity.

Lemma glue_scan_len e h : len_cache (glue_scan e h) = length (modules e).
Proof. unfold glue_scan. destruct (_ =? _) eqn:E; [symmetry; apply Nat.eqb_eq, E|reflexivity]. Qed.

Lemma glue_scan_fix e h : len_cache h = length (modules e) -> glue_scan e h = h.
Proof. intros E. unfold glue_scan. rewrite E, Nat.eqb_refl. reflexivity. Qed.

Lemma glue_scan_idem e h : glue_scan e (glue_scan e h) = glue_scan e h.
Proof. apply glue_scan_fix, glue_scan_len. Qed.

Lemma glue_scan_fields e h :
  trickery_sw (glue_scan e h) = trickery_sw h /\ opts (glue_scan e h) = opts h
  /\ registry_size (glue_scan e h) = registry_size h.
Proof. unfold glue_scan. destruct (_ =? _); auto. Qed.

Lemma extract_hidden_opts e wc rc h : opts (extract_hidden e wc rc h) = opts h.
Proof. reflexivity. Qed.

Lemma extract_hidden_registry e wc rc h : registry_size (extract_hidden e wc rc h) = registry_size h.
Proof.
  unfold extract_hidden. cbn [registry_size]. destruct wc; cbn [registry_size].
  - unfold detect_trickery. cbn [trickery_sw]. destruct (trickery_sw (glue_scan e h)); cbn [registry_size];
      apply glue_scan_fields.
  - apply glue_scan_fields.
Qed.

Lemma hidden_ext (a b : hidden) :
  pending a = pending b -> len_cache a = len_cache b -> trickery_sw a = trickery_sw b ->
  opts a = opts b -> registry_size a = registry_size b -> a = b.
Proof. destruct a, b; cbn; intros; subst; reflexivity. Qed.

Definition tsw_after (e : env) (wc : bool) (h : hidden) : option bool :=
  if wc then match trickery_sw h with Some b => Some b | None => Some (detect e) end else trickery_sw h.

Lemma extract_hidden_fields e wc rc h :
  pending (extract_hidden e wc rc h) = pending (glue_scan e h)
  /\ len_cache (extract_hidden e wc rc h) = len_cache (glue_scan e h)
  /\ trickery_sw (extract_hidden e wc rc h) = tsw_after e wc h.
Proof.
  unfold extract_hidden, tsw_after. cbn [pending len_cache trickery_sw].
  destruct (glue_scan_fields e h) as (Ht & _ & _).
  destruct wc; cbn [pending len_cache trickery_sw]; [|auto].
  unfold detect_trickery. cbn [trickery_sw]. rewrite Ht.
  destruct (trickery_sw h); cbn [pending len_cache trickery_sw]; auto.
Qed.

Theorem extract_hidden_idem e wc rc h :
  extract_hidden e wc rc (extract_hidden e wc rc h) = extract_hidden e wc rc h.
Proof.
  set (h' := extract_hidden e wc rc h).
  destruct (extract_hidden_fields e wc rc h) as (P1 & L1 & T1).
  destruct (extract_hidden_fields e wc rc h') as (P2 & L2 & T2).
  assert (Hs : glue_scan e h' = h') by (apply glue_scan_fix; fold h' in L1; rewrite L1; apply glue_scan_len).
  apply hidden_ext.
  - rewrite P2, Hs. reflexivity.
  - rewrite L2, Hs. reflexivity.
  - rewrite T2. fold h' in T1. unfold tsw_after. rewrite T1. unfold tsw_after.
    destruct wc; [|reflexivity]. destruct (trickery_sw h); reflexivity.
  - reflexivity.
  - rewrite !extract_hidden_registry. reflexivity.
Qed.
