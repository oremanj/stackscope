Require Import Base M_Format M_Summary P_Format.
From Coq Require Import NArith String Permutation.

Definition visb (sh h : bool) : bool := negb h || sh.

Lemma hide_if {X} (h sh : bool) (x : list X) : (if h && negb sh then [] else x) = (if visb sh h then x else []).
Proof. destruct h, sh; reflexivity. Qed.

Definition child_contexts (ks : list child) : list context :=
  flat_map (fun k => match k with KCtx c => [c] | KStk _ => [] end) ks.
Definition c_inner (c : context) := let 'Ctx _ _ _ _ _ _ _ _ _ i _ _ := c in i.
Definition c_kids (c : context) := let 'Ctx _ _ _ _ _ _ _ _ _ _ k _ := c in k.

Lemma flat_map_child_contexts {Y} (G : context -> list Y) ks :
  flat_map (fun k => match k with KCtx c => G c | KStk _ => [] end) ks = flat_map G (child_contexts ks).
Proof. unfold child_contexts. induction ks as [|[c|s] ks IH]; simpl; rewrite ?IH; reflexivity. Qed.

Lemma with_contexts sh cl :
  (forall s, summary true sh cl s
             = flat_map (sum_frame sh cl) (filter (fun f => visb sh (f_hide f)) (s_frames s)))
  /\ (forall f, sum_frame sh cl f
                = flat_map (sum_ctx f sh cl None) (filter (fun c => visb sh (c_hide c)) (f_ctxs f))
                  ++ (if last_exiting (f_ctxs f) then [] else [frame_entry cl f]))
  /\ (forall p ov c, sum_ctx p sh cl ov c
                = if visb sh (c_hide c)
                  then ctx_entry p cl ov c
                       :: (match c_inner c with Some s => summary true sh cl s | None => [] end)
                       ++ flat_map (fun c' => sum_ctx p sh cl (Some (child_override c')) c') (child_contexts (c_kids c))
                  else []).
Proof.
  split; [|split].
  - intros [r fs lf er]. apply flat_map_hide.
  - intros [fn cls md file ln src loc h hl cs]. simpl. f_equal. apply flat_map_vis.
    intros [ty asy ex vn sl ds csrc cr orp inn ks hh]. simpl. destruct hh, sh; reflexivity.
  - intros p ov [ty asy ex vn sl ds csrc cr orp inn ks hh]. simpl. rewrite flat_map_child_contexts.
    destruct hh, sh; reflexivity.
Qed.

(* a header of the tree format: a frame's own line, or the first line of a context (a context
   of a frame: override = None; a child context: override = Some "# ...") *)
Inductive header := HFrame (f : frame) | HCtx (parent : frame) (override : option text) (c : context).

Definition entry_of (cl : bool) (h : header) : entry :=
  match h with HFrame f => frame_entry cl f | HCtx p ov c => ctx_entry p cl ov c end.
Definition is_none {A} (o : option A) : bool := match o with None => true | Some _ => false end.
Definition hdr_line (h : header) : text :=
  match h with HFrame f => frame_header f | HCtx _ ov c => ctx_line (is_none ov) (is_none ov) c end.

(* SUMMARY order: per frame the headers of its contexts, then the frame's own header (dropped
   when the last context is exiting); child task stacks are skipped *)
Fixpoint headers_stack (sh : bool) (s : stack) : list header :=
  flat_map (fun f => if visb sh (f_hide f) then headers_frame sh f else []) (s_frames s)
with headers_frame (sh : bool) (f : frame) : list header :=
  flat_map (headers_ctx sh f None) (f_ctxs f)
  ++ (if last_exiting (f_ctxs f) then [] else [HFrame f])
with headers_ctx (sh : bool) (p : frame) (ov : option text) (c : context) : list header :=
  if visb sh (c_hide c) then
    let 'Ctx _ _ _ _ _ _ _ _ _ inn ks _ := c in
    HCtx p ov c
    :: (match inn with Some s => headers_stack sh s | None => [] end)
    ++ flat_map (fun k => match k with
                          | KCtx c' => headers_ctx sh p (Some (child_override c')) c'
                          | KStk _ => []
                          end) ks
  else [].

(* FORMAT order: the frame's own header first (always printed), then its contexts *)
Fixpoint pre_stack (sh : bool) (s : stack) : list header :=
  flat_map (fun f => if visb sh (f_hide f) then pre_frame sh f else []) (s_frames s)
with pre_frame (sh : bool) (f : frame) : list header :=
  HFrame f :: flat_map (pre_ctx sh f None) (f_ctxs f)
with pre_ctx (sh : bool) (p : frame) (ov : option text) (c : context) : list header :=
  if visb sh (c_hide c) then
    let 'Ctx _ _ _ _ _ _ _ _ _ inn ks _ := c in
    HCtx p ov c
    :: (match inn with Some s => pre_stack sh s | None => [] end)
    ++ flat_map (fun k => match k with
                          | KCtx c' => pre_ctx sh p (Some (child_override c')) c'
                          | KStk _ => []
                          end) ks
  else [].

Definition kept (h : header) : bool :=
  match h with HFrame f => negb (last_exiting (f_ctxs f)) | HCtx _ _ _ => true end.

Lemma flat_map_ext_in {X Y} (F G : X -> list Y) xs :
  (forall x, In x xs -> F x = G x) -> flat_map F xs = flat_map G xs.
Proof. induction xs as [|x xs IH]; simpl; auto. intros H. rewrite H, IH; auto. Qed.

Lemma flat_map_map {X X' Y} (pr : X -> X') (G : X' -> list Y) xs :
  flat_map G (map pr xs) = flat_map (fun x => G (pr x)) xs.
Proof. induction xs as [|x xs IH]; simpl; [|rewrite IH]; reflexivity. Qed.

Lemma Permutation_flat_map_in {X Y} (F G : X -> list Y) xs :
  (forall x, In x xs -> Permutation (F x) (G x)) -> Permutation (flat_map F xs) (flat_map G xs).
Proof.
  induction xs as [|x xs IH]; simpl; auto. intros H. apply Permutation_app; [apply H; auto | apply IH; auto].
Qed.

Lemma filter_flat_map {X Y} (p : Y -> bool) (F : X -> list Y) xs :
  filter p (flat_map F xs) = flat_map (fun x => filter p (F x)) xs.
Proof. induction xs as [|x xs IH]; simpl; auto. rewrite filter_app, IH. reflexivity. Qed.

(* induction for what does not look at child task stacks: below a context are its inner
   stack and its child contexts *)
Section CtxInd.
  Variables (Ps : stack -> Prop) (Pf : frame -> Prop) (Pc : context -> Prop).
  Hypothesis Hs : forall r fs lf er, (forall f, In f fs -> Pf f) -> Ps (Stk r fs lf er).
  Hypothesis Hf : forall f, (forall c, In c (f_ctxs f) -> Pc c) -> Pf f.
  Hypothesis Hc : forall ty asy ex vn sl ds cs cr orp inn ks h,
      opt_P Ps inn -> (forall c, In c (child_contexts ks) -> Pc c) ->
      Pc (Ctx ty asy ex vn sl ds cs cr orp inn ks h).

  Lemma ctx_tree_ind : (forall s, Ps s) /\ (forall f, Pf f) /\ (forall c, Pc c).
  Proof.
    destruct (tree_ind Ps Pf Pc (fun k => match k with KCtx c => Pc c | KStk _ => True end)) as (H1 & H2 & H3 & _);
      auto; intros.
    - apply Hs, Forall_forall. assumption.
    - apply Hf, Forall_forall. assumption.
    - apply Hc; [assumption|]. apply Forall_forall, Forall_flat_map.
      eapply Forall_impl; [|eassumption]. intros [c|s] Hk; repeat constructor. exact Hk.
  Qed.
End CtxInd.

Lemma summary_headers_all sh cl :
  (forall s, map (entry_of cl) (headers_stack sh s) = sum_stack true sh cl s)
  /\ (forall f, map (entry_of cl) (headers_frame sh f) = sum_frame sh cl f)
  /\ (forall c p ov, map (entry_of cl) (headers_ctx sh p ov c) = sum_ctx p sh cl ov c).
Proof.
  apply ctx_tree_ind.
  - intros r fs lf er HF. simpl. apply map_flat_map_gen. intros f Hin.
    rewrite hide_if. destruct (visb sh (f_hide f)); [apply HF, Hin | reflexivity].
  - intros [fn cls md file ln src loc h hl cs] HC. simpl. rewrite map_app. f_equal.
    + apply map_flat_map_gen. intros c Hin. apply HC, Hin.
    + destruct (last_exiting cs); reflexivity.
  - intros ty asy ex vn sl ds cs cr orp inn ks h Hi HK p ov. simpl. rewrite hide_if, !flat_map_child_contexts.
    destruct (visb sh h); [|reflexivity]. simpl. f_equal. rewrite map_app. f_equal.
    + destruct inn as [s|]; [apply Hi | reflexivity].
    + apply map_flat_map_gen. intros c Hin. apply HK, Hin.
Qed.

Lemma reorder_all sh :
  (forall s, Permutation (headers_stack sh s) (filter kept (pre_stack sh s)))
  /\ (forall f, Permutation (headers_frame sh f) (filter kept (pre_frame sh f)))
  /\ (forall c p ov, Permutation (headers_ctx sh p ov c) (filter kept (pre_ctx sh p ov c))).
Proof.
  apply ctx_tree_ind.
  - intros r fs lf er HF. simpl. rewrite filter_flat_map. apply Permutation_flat_map_in.
    intros f Hin. destruct (visb sh (f_hide f)); simpl; [apply HF, Hin | constructor].
  - intros [fn cls md file ln src loc h hl cs] HC. simpl.
    assert (HP : forall f, Permutation (flat_map (headers_ctx sh f None) cs) (filter kept (flat_map (pre_ctx sh f None) cs))).
    { intros f. rewrite filter_flat_map. apply Permutation_flat_map_in. intros c Hin. apply HC, Hin. }
    destruct (last_exiting cs); simpl.
    + rewrite app_nil_r. apply HP.
    + eapply Permutation_trans; [apply Permutation_app_comm|]. apply perm_skip, HP.
  - intros ty asy ex vn sl ds cs cr orp inn ks h Hi HK p ov. simpl. rewrite !flat_map_child_contexts.
    destruct (visb sh h); simpl; auto. apply perm_skip. rewrite filter_app. apply Permutation_app.
    + destruct inn as [s|]; simpl; [apply Hi | constructor].
    + rewrite filter_flat_map. apply Permutation_flat_map_in. intros c Hin. apply HK, Hin.
Qed.

(* format order = the header lines of the tree format, child task stacks removed.
   [prune] deletes child task stacks; the skeleton below is what C18_roundtrip reads back from
   the formatted text of the pruned tree; [sk_pre_*] lists its header lines top to bottom. *)
Fixpoint prune_stack (s : stack) : stack :=
  let 'Stk r fs lf er := s in Stk r (map prune_frame fs) lf er
with prune_frame (f : frame) : frame :=
  let 'Frm a b c d e g l h hl cs := f in Frm a b c d e g l h hl (map prune_ctx cs)
with prune_ctx (c : context) : context :=
  let 'Ctx a b c0 d e g i j k inn ks h := c in
  Ctx a b c0 d e g i j k
      (match inn with Some s => Some (prune_stack s) | None => None end)
      (flat_map (fun k => match k with KCtx c' => [KCtx (prune_ctx c')] | KStk _ => [] end) ks) h.

Fixpoint sk_pre_stack (s : sk_stack) : list text :=
  let 'SkStack fs _ _ := s in flat_map sk_pre_frame fs
with sk_pre_frame (f : sk_frame) : list text :=
  let 'SkFrame hdr cx _ := f in hdr :: flat_map sk_pre_node cx
with sk_pre_node (n : sk_node) : list text :=
  let 'SkNode line inner kids := n in line :: sk_pre_stack inner ++ flat_map sk_pre_node kids.

Lemma prune_frame_hide f : f_hide (prune_frame f) = f_hide f.
Proof. destruct f; reflexivity. Qed.
Lemma prune_frame_header f : frame_header (prune_frame f) = frame_header f.
Proof. destruct f; reflexivity. Qed.
Lemma prune_ctx_hide c : c_hide (prune_ctx c) = c_hide c.
Proof. destruct c; reflexivity. Qed.
Lemma prune_ctx_line hp sl c : ctx_line hp sl (prune_ctx c) = ctx_line hp sl c.
Proof. destruct c; reflexivity. Qed.

Lemma flat_map_pruned_kids {Y} (G : child -> list Y) ks :
  flat_map G (flat_map (fun k => match k with KCtx c' => [KCtx (prune_ctx c')] | KStk _ => [] end) ks)
  = flat_map (fun c => G (KCtx (prune_ctx c))) (child_contexts ks).
Proof. unfold child_contexts. induction ks as [|[c|s] ks IH]; simpl; rewrite ?IH; reflexivity. Qed.

(* visible items, each a skeleton node whose header lines are those of the item *)
Lemma pre_items {X Y} (keep : X -> bool) (node : X -> Y) (K : Y -> list text) (F : X -> list header) xs :
  (forall x, In x xs -> if keep x then K (node x) = map hdr_line (F x) else F x = []) ->
  flat_map K (flat_map (fun x => if keep x then [node x] else []) xs) = map hdr_line (flat_map F xs).
Proof.
  induction xs as [|x xs IH]; simpl; intros H; [reflexivity|]. rewrite flat_map_app, map_app, <- IH by (intros y Hy; apply H; right; exact Hy).
  specialize (H x (or_introl eq_refl)). destruct (keep x); simpl; [rewrite app_nil_r|]; rewrite H; reflexivity.
Qed.

Section FormatOrder.
  Variable o : fopts.
  Hypothesis Hsc : show_ctx o = true.
  Let sh := show_hidden o.

  Lemma vis_visb h : vis o h = visb sh h.
  Proof. reflexivity. Qed.

  Lemma pre_ctx_hidden p ov c : visb sh (c_hide c) = false -> pre_ctx sh p ov c = [].
  Proof. destruct c; simpl. intros ->. reflexivity. Qed.

  Lemma format_order_all :
    (forall s, sk_pre_stack (sk_body o (prune_stack s)) = map hdr_line (pre_stack sh s))
    /\ (forall f, sk_pre_frame (sk_of_frame o (prune_frame f)) = map hdr_line (pre_frame sh f))
    /\ (forall c p ov, visb sh (c_hide c) = true ->
          sk_pre_node (sk_of_ctx o (is_none ov) (is_none ov) (prune_ctx c)) = map hdr_line (pre_ctx sh p ov c)).
  Proof.
    apply ctx_tree_ind.
    - intros r fs lf er HF. simpl. rewrite flat_map_map. apply pre_items. intros f Hin.
      rewrite prune_frame_hide, vis_visb.
      destruct (visb sh (f_hide f)); [apply HF, Hin | reflexivity].
    - intros [fn cls md file ln src loc h hl cs] HC. simpl. rewrite Hsc, flat_map_map. f_equal.
      apply pre_items. intros c Hin. rewrite prune_ctx_hide, vis_visb.
      destruct (visb sh (c_hide c)) eqn:Hv; [apply (HC c Hin _ None Hv) | apply pre_ctx_hidden, Hv].
    - intros ty asy ex vn sl ds cs cr orp inn ks h Hi HK p ov Hv. simpl in Hv |- *.
      rewrite Hv, flat_map_pruned_kids, (flat_map_child_contexts (fun c' => pre_ctx sh p (Some (child_override c')) c')).
      simpl. f_equal. rewrite map_app. f_equal.
      + destruct inn as [s|]; [apply Hi | reflexivity].
      + apply pre_items. intros c Hin. rewrite prune_ctx_hide, vis_visb.
        destruct (visb sh (c_hide c)) eqn:Hv'; [apply (HK c Hin p (Some (child_override c)) Hv') | apply pre_ctx_hidden, Hv'].
  Qed.
End FormatOrder.

(* a context entry reads four fields of its parent frame; the parent of a pruned context is the
   pruned frame, which has them unchanged *)
Definition same_info (p q : frame) : Prop :=
  f_file p = f_file q /\ f_lineno p = f_lineno q /\ f_func p = f_func q /\ f_src p = f_src q.

Lemma last_exiting_prune cs : last_exiting (map prune_ctx cs) = last_exiting cs.
Proof.
  unfold last_exiting, last_opt. rewrite <- map_rev. destruct (rev cs) as [|c r]; simpl; auto.
  destruct c; reflexivity.
Qed.

Lemma prune_summary_all sh cl :
  (forall s sc, sum_stack sc sh cl (prune_stack s) = sum_stack sc sh cl s)
  /\ (forall f, sum_frame sh cl (prune_frame f) = sum_frame sh cl f /\ frame_entry cl (prune_frame f) = frame_entry cl f)
  /\ (forall c p q ov, same_info p q -> sum_ctx q sh cl ov (prune_ctx c) = sum_ctx p sh cl ov c).
Proof.
  apply ctx_tree_ind.
  - intros r fs lf er HF sc. simpl. rewrite flat_map_map. apply flat_map_ext_in. intros f Hin.
    rewrite prune_frame_hide. destruct (HF f Hin) as [-> ->]. reflexivity.
  - intros [fn cls md file ln src loc h hl cs] HC. split; [|reflexivity]. simpl.
    rewrite last_exiting_prune, flat_map_map. f_equal. apply flat_map_ext_in. intros c Hin.
    apply (HC c Hin). repeat split.
  - intros ty asy ex vn sl ds cs cr orp inn ks h Hi HK p q ov SI. simpl.
    rewrite flat_map_pruned_kids, flat_map_child_contexts. destruct (h && negb sh); auto. f_equal.
    + destruct SI as [E1 [E2 [E3 E4]]]. unfold ctx_entry. simpl. rewrite E1, E2, E3, E4. reflexivity.
    + f_equal; [destruct inn as [s|]; [apply Hi | reflexivity]|]. apply flat_map_ext_in. intros c Hin.
      replace (child_override (prune_ctx c)) with (child_override c) by (destruct c; reflexivity).
      apply (HK c Hin), SI.
Qed.

Theorem projection o cl t :
  show_ctx o = true ->
  let sh := show_hidden o in
  summary true sh cl t = map (entry_of cl) (headers_stack sh t)
  /\ (exists hdr sk, read_back (fmt_stack_sl o (prune_stack t)) = Some (hdr, sk)
                     /\ sk_pre_stack sk = map hdr_line (pre_stack sh t))
  /\ summary true sh cl (prune_stack t) = summary true sh cl t
  /\ Permutation (headers_stack sh t) (filter kept (pre_stack sh t)).
Proof.
  intros Hsc sh. split; [|split; [|split]].
  - symmetry. apply summary_headers_all.
  - eexists. eexists. split; [apply roundtrip|]. apply (format_order_all o Hsc).
  - apply prune_summary_all.
  - apply reorder_all.
Qed.
