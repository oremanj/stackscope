(* P_Snapshot.v — the lemmas behind C07.v, in four parts:
     the retry protocol of inspect_frame against an adversarial target (M_Snapshot): Section Snap
       follows one attempt phase by phase (hdr_read, slot_loop_spec, reads_spec, attempt_spec) and
       run_spec says what a whole run returns; from it the blocks of the accepted position
       (blocks_of_accepted); the target that stands still (first_attempt_exact); the instance on
       the constants regenerated from the source (the_cfg);
     unwrap_thread (M_ThreadLife): the life of the thread asked about only moves forward
       (lstep_life, lsteps_life);
     the search of the other threads' stacks (M_ThreadLife): search_cases;
     the raw reads of the 3.8-3.10 reader (M_Snapshot310): deref_from_bound, validity_limit_le.
   Each part ends with examples that meet the hypotheses of its theorems in C07.v. *)
Require Import Base M_Snapshot M_ThreadLife.
From SS.gen Require Import SrcFacts.

Definition pushes (g : ghost) (rs : list rd) : ghost := fold_left push_read rs g.

Lemma pushes_fields rs : forall g,
  reads (pushes g rs) = reads g ++ rs /\ held (pushes g rs) = held g ++ map r_val rs /\
  incs (pushes g rs) = incs g + length rs /\ decs (pushes g rs) = decs g /\
  nretry (pushes g rs) = nretry g /\ stale_hdr (pushes g rs) = stale_hdr g.
Proof.
  induction rs as [|r rs IH]; intros g; simpl.
  - rewrite !app_nil_r. repeat split; lia.
  - destruct (IH (push_read g r)) as (A & B & C & D & E & F). rewrite A, B, C, D, E, F. simpl.
    rewrite <- !app_assoc. repeat split; lia.
Qed.

Section Snap.
  Variable c : cfg.
  (* ENVIRONMENT ASSUMPTION (compiler invariant): the depth of the value stack is a function of
     the instruction position *)
  Variable d : nat -> nat.

  (* what the target can look like while its frame is on the thread *)
  Definition wf_state (s : tstate) : Prop :=
    length (slots s) = d (lasti s) /\
    (top s = None \/ top s = Some (length (slots s))) /\
    handler_depth (tbl c) (lasti s) <= length (slots s) /\     (* exception-table depth is safe *)
    length (slots s) <= stacksize c /\
    lasti s <> ret_lasti c.                                    (* finishing changes f_lasti *)
  Definition wf_move (m : move) : Prop := match m with Goto s => wf_state s | _ => True end.
  Definition wf_env (env : env_t) : Prop := forall a p, wf_move (env a p).
  Definition wf_world (w : world) : Prop :=
    match whr w with OnThread => wf_state (cur w) | InFrameObj => cur w = done_state c end.

  (* the reference specification (written from the property text) *)
  (* a raw slot read is safe and meaningful *)
  Definition rd_ok (r : rd) : Prop :=
    r_live r = true /\                               (* not through a dangling pointer *)
    r_idx r < length (r_slots r) /\                  (* inside the valid part of the stack *)
    r_now r = r_before r /\                          (* taken while f_lasti = lasti_before *)
    r_val r = nth (r_idx r) (r_slots r) STALE.       (* hence returns the slot's real content *)

  (* a returned snapshot (L, st) is backed by the reads rs *)
  Definition consistent_snapshot (L : nat) (st : list obj) (rs : list rd) : Prop :=
    st = map r_val rs /\
    map r_idx rs = seq 0 (length st) /\
    Forall (fun r => rd_ok r /\ r_before r = L) rs /\
    (length st = d L \/ length st = handler_depth (tbl c) L \/ (st = [] /\ L = ret_lasti c)).

  Definition ginv (g : ghost) : Prop :=
    incs g = decs g + length (held g) /\ Forall rd_ok (reads g) /\ stale_hdr g = 0.

  Lemma ginv_drop g : ginv g -> ginv (drop_held g).
  Proof. unfold ginv. simpl. intros (Hb & H). split; [lia|exact H]. Qed.

  Lemma ginv_pushes g rs : ginv g -> Forall rd_ok rs -> ginv (pushes g rs).
  Proof.
    unfold ginv. intros (Hb & Hr & Hs) Hrs. destruct (pushes_fields rs g) as (A & B & C & D & _ & F).
    rewrite A, B, C, D, F, app_length, map_length.
    split; [lia|]. split; [apply Forall_app; auto|exact Hs].
  Qed.

  Lemma apply_wf m w : wf_world w -> wf_move m -> wf_world (apply c m w).
  Proof.
    unfold apply, wf_world. destruct (whr w) eqn:E; intros Hw Hm.
    - destruct m; simpl; auto. rewrite E. auto.
    - rewrite E. auto.
  Qed.

  Lemma apply_whr_on m w : whr (apply c m w) = OnThread -> whr w = OnThread.
  Proof. unfold apply. destruct (whr w) eqn:E; auto. rewrite E. auto. Qed.

  Lemma wf_fo w : wf_world w -> whr w = InFrameObj -> cur w = done_state c.
  Proof. unfold wf_world. intros H E. rewrite E in H. exact H. Qed.

  Lemma wf_on w : wf_world w -> whr w = OnThread -> wf_state (cur w).
  Proof. unfold wf_world. intros H E. rewrite E in H. exact H. Qed.

  (* the number of slots the header reads announce for position L *)
  Definition hlen (L : nat) (s : tstate) : nat :=
    match top s with None => handler_depth (tbl c) L | Some n => n end.

  Lemma hdr_read L w : wf_world w ->
    match top (cur w) with
    | None => Some (handler_depth (tbl c) L)
    | Some n => if n <=? stacksize c then Some n else None
    end = Some (hlen L (cur w)).
  Proof.
    intros Hw. unfold hlen. destruct (whr w) eqn:E.
    - destruct (wf_on _ Hw E) as (_ & Htop & _ & Hss & _).
      destruct Htop as [-> | ->]; [reflexivity|]. apply Nat.leb_le in Hss. rewrite Hss. reflexivity.
    - rewrite (wf_fo _ Hw E). reflexivity.
  Qed.

  (* it never exceeds the depth of that position: the handler depth by assumption, a saved
     stacktop because it is that depth *)
  Lemma hlen_ok s : wf_state s ->
    hlen (lasti s) s <= d (lasti s) /\
    (hlen (lasti s) s = d (lasti s) \/ hlen (lasti s) s = handler_depth (tbl c) (lasti s)).
  Proof.
    intros (Hd & Htop & Hh & _). unfold hlen. rewrite <- Hd. destruct Htop as [-> | ->]; auto.
  Qed.

  Variable env : env_t.
  Hypothesis Henv : wf_env env.
  Variable garb : garb_t.
  Hypothesis Hslot : chk_slot c = true.

  Lemma slot_loop_spec a L : L <> ret_lasti c ->
    forall idxs w g ok w' g',
    (forall i, In i idxs -> i < d L) -> wf_world w ->
    slot_loop c env a L OnThread idxs w g = (ok, w', g') ->
    wf_world w' /\ (ok = false -> lasti (cur w') <> L) /\
    exists rs, g' = pushes g rs /\ Forall (fun r => rd_ok r /\ r_before r = L) rs /\
               (ok = true -> map r_idx rs = idxs).
  Proof.
    intros HL. induction idxs as [|i r IH]; intros w g ok w' g' Hidx Hw; simpl.
    - intros [= <- <- <-]. split; [exact Hw|]. split; [discriminate|]. exists []. auto.
    - set (w1 := apply c (env a (P3 i)) w).
      assert (Hw1 : wf_world w1) by (apply apply_wf; auto).
      rewrite Hslot. simpl. destruct (Nat.eqb_spec (lasti (cur w1)) L) as [E|E].
      + (* the re-check passed: the frame is on its thread at a state of position L, whose
           depth is d L, so slot i exists *)
        assert (Hon : whr w1 = OnThread).
        { destruct (whr w1) eqn:Ew; [reflexivity|]. rewrite (wf_fo _ Hw1 Ew) in E. simpl in E. congruence. }
        destruct (wf_on _ Hw1 Hon) as (Hd & _).
        assert (Hi : i < length (slots (cur w1))) by (rewrite Hd, E; apply Hidx; left; reflexivity).
        unfold is_stale. rewrite Hon. simpl. apply Nat.ltb_lt in Hi as Hib. rewrite Hib. intros Hrun.
        apply IH in Hrun; [|intros j Hj; apply Hidx; right; exact Hj|exact Hw1].
        destruct Hrun as (Hw' & Hno & rs & -> & Hrs & Hok).
        split; [exact Hw'|]. split; [exact Hno|]. eexists (_ :: rs). split; [reflexivity|]. split.
        * constructor; [|exact Hrs]. unfold rd_ok. simpl. repeat split; auto.
        * intros Ht. simpl. rewrite (Hok Ht). reflexivity.
      + intros [= <- <- <-]. split; [exact Hw1|]. split; [auto|]. exists []. repeat split; auto. discriminate.
  Qed.

  (* the read phase of an attempt whose header was read in w1: nothing is read from a completed
     frame (it is accepted with the empty stack), hlen slots from one that is on its thread *)
  Lemma reads_spec a L w1 w3 g ok w4 g4 :
    lasti (cur w1) = L -> wf_world w1 -> wf_world w3 ->
    (if loc_fo (whr w1) then (true, w3, g)
     else slot_loop c env a L (whr w1) (seq 0 (hlen L (cur w1))) w3 g) = (ok, w4, g4) ->
    wf_world w4 /\ (ok = false -> lasti (cur w4) <> L) /\
    exists rs, g4 = pushes g rs /\ Forall (fun r => rd_ok r /\ r_before r = L) rs /\
               (ok = true -> consistent_snapshot L (map r_val rs) rs).
  Proof.
    intros <- Hw1 Hw3 H. destruct (whr w1) eqn:Eloc; simpl in H.
    - pose proof (wf_on _ Hw1 Eloc) as Hs. destruct (hlen_ok _ Hs) as (Hle & Hwhich).
      destruct Hs as (_ & _ & _ & _ & Hnr).
      apply (slot_loop_spec a _ Hnr) in H; [|intros i Hi; apply in_seq in Hi; lia|exact Hw3].
      destruct H as (Hw4 & Hno & rs & -> & Hrs & Hidx).
      split; [exact Hw4|]. split; [exact Hno|]. exists rs. split; [reflexivity|]. split; [exact Hrs|].
      (* accepted: all hlen slots were read, and hlen is one of the two lengths valid here *)
      intros Ht. specialize (Hidx Ht).
      assert (E : length rs = hlen (lasti (cur w1)) (cur w1)).
      { rewrite <- (map_length r_idx), Hidx. apply seq_length. }
      unfold consistent_snapshot. rewrite map_length, E.
      split; [reflexivity|]. split; [exact Hidx|]. split; [exact Hrs|]. tauto.
    - inversion H; subst. split; [exact Hw3|]. split; [discriminate|].
      exists []. split; [reflexivity|]. split; [constructor|]. intros _.
      split; [reflexivity|]. split; [reflexivity|]. split; [constructor|].
      right; right. rewrite (wf_fo _ Hw1 Eloc). auto.
  Qed.

  Hypothesis Hhdr : chk_hdr c = true.
  Hypothesis Hat : hdr_atomic c = true.

  Lemma is_stale_self w : is_stale (whr w) w = false.
  Proof. unfold is_stale. destruct (whr w); auto. Qed.

  Definition attempt_post (w : world) (g : ghost) (ok : bool) (w' : world) (g' : ghost) (L : nat) : Prop :=
    L = lasti (cur w) /\ wf_world w' /\ nretry g' = nretry g /\ (ginv g -> ginv g') /\
    if ok then lasti (cur w') = L /\ exists rs, reads g' = reads g ++ rs /\ consistent_snapshot L (held g') rs
    else lasti (cur w') <> L.

  Lemma attempt_post_early w g w' :
    wf_world w' -> lasti (cur w') <> lasti (cur w) -> attempt_post w g false w' g (lasti (cur w)).
  Proof.
    intros Hw Hne. split; [reflexivity|]. split; [exact Hw|]. split; [reflexivity|]. split; [auto|exact Hne].
  Qed.

  Lemma attempt_post_reads w g (ok : bool) w' rs :
    wf_world w' ->
    (if ok then lasti (cur w') = lasti (cur w) else lasti (cur w') <> lasti (cur w)) ->
    Forall (fun r => rd_ok r /\ r_before r = lasti (cur w)) rs ->
    (ok = true -> consistent_snapshot (lasti (cur w)) (map r_val rs) rs) ->
    attempt_post w g ok w' (pushes (drop_held g) rs) (lasti (cur w)).
  Proof.
    intros Hw Hl Hrs Hok. destruct (pushes_fields rs (drop_held g)) as (A & B & _ & _ & E & _).
    unfold attempt_post. rewrite A, B, E. simpl.
    split; [reflexivity|]. split; [exact Hw|]. split; [reflexivity|]. split.
    - intros Hg. apply ginv_pushes; [apply ginv_drop; exact Hg|].
      eapply Forall_impl; [|exact Hrs]. intros r [H _]. exact H.
    - destruct ok; [|exact Hl]. split; [exact Hl|]. exists rs. auto.
  Qed.

  Lemma attempt_spec a w g ok w' g' L :
    wf_world w -> attempt c env garb a w g = (ok, w', g', L) -> attempt_post w g ok w' g' L.
  Proof.
    intros Hw. unfold attempt. rewrite Hat, Hhdr, is_stale_self.
    set (w1 := apply c (env a P1) w).
    assert (Hw1 : wf_world w1) by (apply apply_wf; auto).
    simpl. replace (note_hdr false g) with g by (destruct g; reflexivity).
    destruct (Nat.eqb_spec (lasti (cur w1)) (lasti (cur w))) as [E1|E1]; simpl.
    2:{ intros [= <- <- <- <-]. apply attempt_post_early; assumption. }
    rewrite (hdr_read _ _ Hw1).
    set (w3 := apply c (env a P2) w1).
    assert (Hw3 : wf_world w3) by (apply apply_wf; auto).
    destruct (Nat.eqb_spec (lasti (cur w3)) (lasti (cur w))) as [E3|E3]; simpl.
    2:{ intros [= <- <- <- <-]. apply attempt_post_early; assumption. }
    destruct (if loc_fo (whr w1) then _ else _) as [[ok4 w4] g4] eqn:Erd.
    apply (reads_spec a _ w1 w3 _ _ _ _ E1 Hw1 Hw3) in Erd.
    destruct Erd as (Hw4 & Hno & rs & -> & Hrs & Hcs).
    destruct ok4; simpl.
    - set (w5 := apply c (env a P4) w4).
      assert (Hw5 : wf_world w5) by (apply apply_wf; auto).
      destruct (Nat.eqb_spec (lasti (cur w5)) (lasti (cur w))) as [E5|E5]; intros [= <- <- <- <-];
        apply attempt_post_reads; auto; discriminate.
    - intros [= <- <- <- <-]. apply attempt_post_reads; auto.
  Qed.

  (* b bounds the number of retries: not reached by a run that returns, reached by one that gives up.
     OAssert => False: the `raise` of a rejected attempt whose f_lasti is unchanged never happens,
     because an attempt is only rejected when the position has moved (attempt_post). *)
  Definition run_post (b : nat) (o : outcome) (g' : ghost) (w' : world) : Prop :=
    ginv g' /\ wf_world w' /\
    match o with
    | OOk L st => held g' = st /\ lasti (cur w') = L /\ nretry g' < b /\
                  exists pre rs, reads g' = pre ++ rs /\ consistent_snapshot L st rs
    | OAssert => False
    | ORuntime => nretry g' = b /\ held g' = []
    end.

  Lemma run_n_spec n : forall a w g o g' w',
    wf_world w -> ginv g -> run_n c env garb n a w g = (o, g', w') -> run_post (nretry g + n) o g' w'.
  Proof.
    induction n as [|n IH]; intros a w g o g' w' Hw Hg; simpl.
    - intros [= <- <- <-]. split; [apply ginv_drop; exact Hg|]. split; [exact Hw|].
      split; [apply plus_n_O|reflexivity].
    - destruct (attempt c env garb a w g) as [[[ok w1] g1] L] eqn:Ea.
      apply attempt_spec in Ea; [|exact Hw].
      destruct Ea as (_ & Hw1 & Hn1 & Hg1 & Hok). destruct ok.
      + intros [= <- <- <-]. destruct Hok as (Hl & rs & Hrs & Hcs).
        split; [auto|]. split; [exact Hw1|]. split; [reflexivity|]. split; [exact Hl|]. split; [lia|].
        exists (reads g), rs. auto.
      + (* rejected, hence (the position has changed) retried, with one more retry counted *)
        apply Nat.eqb_neq in Hok. rewrite Hok, <- Hn1, Nat.add_succ_r.
        apply (IH (S a) _ (bump_retry g1)); [apply apply_wf; auto|exact (Hg1 Hg)].
  Qed.
End Snap.

Definition flags_ok (c : cfg) : Prop := chk_hdr c = true /\ chk_slot c = true /\ hdr_atomic c = true.

Lemma run_spec c d env garb w o g w' :
  flags_ok c -> wf_env c d env -> wf_world c d w -> run c env garb w = (o, g, w') ->
  run_post c d (retries c) o g w'.
Proof.
  intros (F1 & F2 & F3) He Hw. apply (run_n_spec c d env He garb F2 F1 F3); [exact Hw|].
  split; [reflexivity|]. split; [constructor|reflexivity].
Qed.

Lemma blocks_of_accepted c d env garb w :
  flags_ok c -> blk_from_accepted c = true -> wf_env c d env -> wf_world c d w ->
  forall L st g w6 bp bl, inspect c env garb w = (OOk L st, g, w6, (bp, bl)) ->
  bp = L /\ bl = blocks_at c L /\
  exists pre rs, reads g = pre ++ rs /\ consistent_snapshot c d L st rs.
Proof.
  intros Hf Hb He Hw L st g w6 bp bl H. unfold inspect in H.
  destruct (run c env garb w) as [[o g'] w'] eqn:Er.
  destruct (run_spec c d env garb w o g' w' Hf He Hw Er) as (_ & _ & P).
  destruct o; try discriminate. rewrite Hb in H. inversion H; subst.
  split; [reflexivity|]. split; [reflexivity|]. destruct P as (_ & _ & _ & P). exact P.
Qed.

Lemma map_nth_seq_firstn {A} (dflt : A) : forall (l : list A) len, len <= length l ->
  map (fun i => nth i l dflt) (seq 0 len) = firstn len l.
Proof.
  induction l as [|x l IH]; intros [|len] H; simpl in *; auto; try lia.
  f_equal. rewrite <- seq_shift, map_map. simpl. apply IH. lia.
Qed.

(* the schedule of C07_blocked_exact *)
Definition quiet : env_t := fun _ _ => Stay.

Lemma apply_stay c w : apply c Stay w = w.
Proof. unfold apply. destruct (whr w); reflexivity. Qed.

Definition rd_at (w : world) (i : nat) : rd :=
  mkRd i true (slots (cur w)) (lasti (cur w)) (lasti (cur w)) (nth i (slots (cur w)) STALE).

Lemma slot_loop_still c env a : chk_slot c = true -> (forall p, env a p = Stay) ->
  forall idxs w g, whr w = OnThread ->
  (forall i, In i idxs -> i < length (slots (cur w))) ->
  slot_loop c env a (lasti (cur w)) OnThread idxs w g = (true, w, pushes g (map (rd_at w) idxs)).
Proof.
  intros Hs He. induction idxs as [|i r IH]; intros w g Hon Hidx; simpl; [reflexivity|].
  rewrite !He, !apply_stay, Hs, Nat.eqb_refl. simpl.
  unfold is_stale. rewrite Hon. simpl.
  assert (Hi : i < length (slots (cur w))) by (apply Hidx; left; auto).
  apply Nat.ltb_lt in Hi. rewrite Hi. apply IH; [exact Hon|]. intros j Hj. apply Hidx. right; auto.
Qed.

Lemma first_attempt_exact c d env garb s :
  flags_ok c -> 0 < retries c -> wf_state c d s -> (forall p, env 0 p = Stay) ->
  let len := match top s with None => handler_depth (tbl c) (lasti s) | Some n => n end in
  exists g, run c env garb (mkW s OnThread) = (OOk (lasti s) (firstn len (slots s)), g, mkW s OnThread)
            /\ nretry g = 0 /\ length (reads g) = len
            /\ (top s <> None -> firstn len (slots s) = slots s /\ len = d (lasti s)).
Proof.
  intros (F1 & F2 & F3) Hr Hs He len. pose proof Hs as (Hd & Htop & _).
  assert (Hlen : len <= length (slots s)) by (rewrite Hd; apply (hlen_ok c d s Hs)).
  set (rs := map (rd_at (mkW s OnThread)) (seq 0 len)).
  destruct (pushes_fields rs (drop_held g0)) as (A & B & _ & _ & C & _). simpl in A, B, C.
  exists (pushes (drop_held g0) rs). unfold run. destruct (retries c) as [|n]; [lia|].
  simpl. unfold attempt. rewrite F1, F3, !He, !apply_stay, is_stale_self. simpl.
  pose proof (hdr_read c d (lasti s) (mkW s OnThread) Hs) as Hsz. simpl in Hsz.
  rewrite !Nat.eqb_refl, Hsz. simpl. change (hlen c (lasti s) s) with len.
  replace (note_hdr false g0) with g0 by reflexivity.
  rewrite (slot_loop_still c env 0 F2 He _ (mkW s OnThread)); [|reflexivity|].
  2:{ intros i Hi. apply in_seq in Hi. simpl. lia. }
  fold rs. simpl. rewrite !Nat.eqb_refl, A, B, C. unfold rs.
  rewrite map_map, map_length, seq_length. simpl. rewrite map_nth_seq_firstn by exact Hlen.
  split; [reflexivity|]. split; [reflexivity|]. split; [reflexivity|].
  intros Hne. destruct Htop as [E0|E0]; [contradiction|].
  unfold len. rewrite E0. split; [apply firstn_all|auto].
Qed.

(* the routine as it is in /repo now: retry bound and structure regenerated from the source *)
Definition the_xcfg (t : list (nat * nat * nat)) (tg : list nat) (ssize rl : nat) : cfg :=
  mkC t ssize SrcFacts.snapshot_retries rl
      SrcFacts.snapshot_header_check_adjacent SrcFacts.snapshot_slot_check_adjacent
      SrcFacts.snapshot_capture_to_check_no_call tg SrcFacts.snapshot_blocks_from_accepted.
Definition the_cfg (t : list (nat * nat * nat)) (ssize rl : nat) : cfg := the_xcfg t [] ssize rl.

(* fails to type-check as soon as one of the three structural facts is false *)
Lemma the_flags t ssize rl : flags_ok (the_cfg t ssize rl).
Proof. repeat split; reflexivity. Qed.

Lemma the_retries t ssize rl : retries (the_cfg t ssize rl) = 10.
Proof. reflexivity. Qed.

Lemma the_xflags t tg ssize rl : flags_ok (the_xcfg t tg ssize rl) /\ blk_from_accepted (the_xcfg t tg ssize rl) = true.
Proof. repeat split; reflexivity. Qed.

(* the hypotheses are met by a non-trivial input: a target with two positions (depth 1 at
   lasti 10 suspended in a call, depth 3 at lasti 20 executing inside a handler region of depth 2)
   that moves while it is inspected, and then returns *)
Definition ex_tbl := [(16, 30, 2)].
Definition ex_cfg := the_cfg ex_tbl 8 40.
Definition ex_d (l : nat) : nat := if l =? 10 then 1 else if l =? 20 then 3 else 0.
Definition ex_s1 := mkT 10 (Some 1) [5].
Definition ex_s2 := mkT 20 None [6; 7; 8].
Definition ex_env : env_t := env_of [(0, P1, Goto ex_s2); (1, P3 1, Goto ex_s1); (2, P3 0, Ret)].
Definition ex_w := mkW ex_s1 OnThread.

Example ex_blocked_hyp : wf_state ex_cfg ex_d ex_s2 /\ wf_state ex_cfg ex_d ex_s1.
Proof. unfold wf_state; simpl. repeat split; auto; try lia. Qed.

Example ex_wf_world : wf_world ex_cfg ex_d ex_w.
Proof. exact (proj2 ex_blocked_hyp). Qed.

Lemma wf_env_of c d l : Forall (fun x => wf_move c d (snd x)) l -> wf_env c d (env_of l).
Proof.
  induction 1 as [|[[a' p'] m] l Hm _ IH]; intros a p; simpl; [exact I|].
  destruct (_ && _); [exact Hm|apply IH].
Qed.

Example ex_wf_env : wf_env ex_cfg ex_d ex_env.
Proof.
  destruct ex_blocked_hyp as [H2 H1]. apply wf_env_of.
  constructor; [exact H2|]. constructor; [exact H1|]. constructor; [exact I|constructor].
Qed.

Example ex_run_nontrivial :
  let '(o, g, _) := run ex_cfg ex_env no_garbage ex_w in
  o = OOk 40 [] /\ nretry g = 3 /\ length (reads g) = 1 /\ incs g = 1 /\ decs g = 1.
Proof. vm_compute. repeat split; reflexivity. Qed.

Example ex_run_quiet :
  let '(o, g, _) := run ex_cfg (fun _ _ => Stay) no_garbage (mkW ex_s2 OnThread) in
  o = OOk 20 [6; 7] /\ nretry g = 0.
Proof. vm_compute. split; reflexivity. Qed.

(* what the flags chk_hdr and hdr_atomic (regenerated by SrcFacts) protect against: without the
   header re-check (finding F13) an A-B-A move of the target pairs lasti 10 (depth 1) with the
   stack length of lasti 20 ... *)
Definition ex_s2' := mkT 20 (Some 3) [6; 7; 8].
Example ex_F13_without_header_check :
  let c := mkC ex_tbl 8 10 40 false true true [] true in
  let '(o, g, _) := run c (env_of [(0, P1, Goto ex_s2'); (0, P2, Goto ex_s1)]) no_garbage ex_w in
  o = OOk 10 [5; STALE; STALE] /\ nretry g = 0.
Proof. vm_compute. split; reflexivity. Qed.
(* ... and with a switch point between pointer capture and header read (finding F15) a returning
   frame leaves the header reads with a dangling pointer *)
Example ex_F15_without_atomic_capture :
  let c := mkC ex_tbl 8 10 40 true true false [] true in
  let '(_, g, _) := run c (env_of [(0, P1b, Ret)]) no_garbage ex_w in
  stale_hdr g = 1.
Proof. vm_compute. reflexivity. Qed.

(* hypotheses met by a non-trivial input: accepted at lasti 20 (inside the handler range 16..30 whose
   handler is at 50, itself covered by 44..60 -> 70), the target leaves for lasti 10 at P6 *)
Definition ex_xcfg := the_xcfg [(16, 30, 2); (44, 60, 1)] [50; 70] 8 40.
Example ex_blocks :
  inspect ex_xcfg (env_of [(0, P6, Goto ex_s1)]) no_garbage (mkW ex_s2 OnThread)
  = (OOk 20 [6; 7], mkG [6; 7] 2 0 [mkRd 0 true [6;7;8] 20 20 6; mkRd 1 true [6;7;8] 20 20 7] 0 0,
     mkW ex_s1 OnThread, (20, [(70, 1); (50, 2)])).
Proof. reflexivity. Qed.
(* what the re-read of f_lasti would do (flag off): A's stack with B's (here: no) blocks *)
Example ex_blocks_from_fresh_lasti :
  let c := mkC [(16, 30, 2); (44, 60, 1)] 8 10 40 true true true [50; 70] false in
  snd (inspect c (env_of [(0, P6, Goto ex_s1)]) no_garbage (mkW ex_s2 OnThread)) = (10, []).
Proof. reflexivity. Qed.

(* the life of the thread that unwrap_thread asks about only moves forward: it leaves NotStarted
   by its own start event alone, and Finished never *)
Lemma lstep_life w e :
  match tlife w with
  | NotStarted => (forall i, e <> EStart i) -> tlife (lstep w e) = NotStarted
  | Alive i => tlife (lstep w e) = Alive i \/ tlife (lstep w e) = Finished i
  | Finished i => tlife (lstep w e) = Finished i
  end.
Proof.
  destruct (tlife w) eqn:H; destruct e; unfold lstep, t_alive, t_live_ident; rewrite ?H; simpl; auto.
  - intros Hn. destruct (Hn i eq_refl).
  - destruct (_ || _); simpl; auto.
  - destruct (_ || _); simpl; auto.
  - destruct (_ || _); simpl; auto.
Qed.

Lemma lsteps_life es : forall w,
  match tlife w with
  | NotStarted => (forall i, ~ In (EStart i) es) -> tlife (lsteps w es) = NotStarted
  | Alive i => tlife (lsteps w es) = Alive i \/ tlife (lsteps w es) = Finished i
  | Finished i => tlife (lsteps w es) = Finished i
  end.
Proof.
  induction es as [|e es IH]; intros w; simpl.
  - destruct (tlife w); auto.
  - pose proof (lstep_life w e) as S. specialize (IH (lstep w e)). destruct (tlife w) as [|i|i].
    + intros Hn. rewrite S in IH.
      * apply IH. intros i Hi. apply (Hn i). right; exact Hi.
      * intros i ->. apply (Hn i). left; reflexivity.
    + destruct S as [S|S]; rewrite S in IH; auto.
    + rewrite S in IH. exact IH.
Qed.

(* the final is_alive() is what protects against ident reuse: without it a finished thread whose
   ident went to another thread would be reported with that other thread's frame *)
Definition unwrap_thread_no_recheck (w : lworld) (e1 e2 : list levent) : lres :=
  let w1 := lsteps w e1 in
  let w2 := lsteps w1 e2 in
  match current_frame_of_ident w2 (t_ident w2) with
  | None => REmpty
  | Some f => if negb (t_alive w1) then REmpty else RSlice f
  end.

Example ex_life_hyp :
  unwrap_thread (mkL NotStarted 0 []) [EStart 7; EStep 2] [OStart 1 8 0; EStep 3] [OFinish 8; EStep 4]
  = (RSlice (0, 3), mkL (Alive 7) 3 [(8, (1, 0))]).
Proof. reflexivity. Qed.

Definition hit (me outer : nat) (p : nat * tstack) : Prop := fst p <> me /\ try_from outer (snd p) <> [].
(* frames are exclusive to one stack, so any two other threads on whose stack `outer` is found
   yield the same frames (in reality there is at most one) *)
Definition hits_agree (me outer : nat) (ths : list (nat * tstack)) : Prop :=
  forall p q, In p ths -> In q ths -> hit me outer p -> hit me outer q ->
              try_from outer (snd p) = try_from outer (snd q).

Lemma search_cases me outer ths :
  (search_others me outer ths = [] /\ forall p, In p ths -> ~ hit me outer p) \/
  (exists p, In p ths /\ hit me outer p /\ search_others me outer ths = try_from outer (snd p)).
Proof.
  induction ths as [|[i st] r IH].
  - left. split; [reflexivity | intros p []].
  - (* the first thread listed is the one found, or it is passed over *)
    assert (Hd : hit me outer (i, st) /\ search_others me outer ((i, st) :: r) = try_from outer st \/
                 ~ hit me outer (i, st) /\ search_others me outer ((i, st) :: r) = search_others me outer r).
    { unfold hit. simpl. destruct (Nat.eqb_spec i me) as [E|E]; [right; split; [tauto | reflexivity]|].
      destruct (try_from outer st); [right; split; [tauto | reflexivity]|].
      left. split; [split; [exact E | discriminate] | reflexivity]. }
    destruct Hd as [[Hh Hs]|[Hn Hs]]; rewrite Hs.
    + right. exists (i, st). split; [left; reflexivity | auto].
    + destruct IH as [[H1 H2]|(p & Hp & Hh & Hs')].
      * left. split; [exact H1|]. intros p [<-|Hp]; auto.
      * right. exists p. split; [right; exact Hp | auto].
Qed.

Lemma try_from_acc_split outer inner rest : ~ In outer inner -> forall acc,
  try_from_acc outer (inner ++ outer :: rest) acc = outer :: rev inner ++ acc.
Proof.
  induction inner as [|f inner IH]; intros Hn acc; simpl.
  - rewrite Nat.eqb_refl. reflexivity.
  - destruct (f =? outer) eqn:E.
    + apply Nat.eqb_eq in E. exfalso. apply Hn. left; auto.
    + rewrite IH by (intros H; apply Hn; right; auto). rewrite <- app_assoc. reflexivity.
Qed.

(* hypotheses met by a non-trivial input: caller 2 listed first (newest), the frame 13 runs on the
   older thread 1; thread 3 and the main thread 0 hold other frames *)
Definition ex_ths : list (nat * tstack) := [(2, [25; 24]); (3, [31; 30]); (1, [15; 14; 13; 12; 11]); (0, [5; 4])].
Example ex_search :
  hits_agree 2 13 ex_ths /\ unwrap_outer 2 13 [25; 24] ex_ths = ([13; 14; 15], false)
  /\ unwrap_outer 2 13 [25; 24] (rev ex_ths) = ([13; 14; 15], false)
  /\ unwrap_outer 2 99 [25; 24] ex_ths = ([99], true).
Proof.
  split; [|repeat split; reflexivity].
  (* only thread 1 has frame 13 on its stack *)
  assert (U : forall r, In r ex_ths -> hit 2 13 r -> r = (1, [15; 14; 13; 12; 11])).
  { intros r Hr [H1 H2]. simpl in Hr.
    destruct Hr as [<-|[<-|[<-|[<-|[]]]]]; try reflexivity; exfalso; (apply H1; reflexivity) || (apply H2; reflexivity). }
  intros p q Hp Hq Hhp Hhq. rewrite (U p Hp Hhp), (U q Hq Hhq). reflexivity.
Qed.

Require Import M_Snapshot310.

Definition deref_index (r : rawread) : option nat := match r with RDeref i _ => Some i | RWord _ => None end.

Lemma deref_from_bound (P : rawread -> Prop) : forall ws i vs rs, deref_from i ws = (vs, rs) ->
  (forall j a, i <= j < i + length ws -> a <> 0 -> P (RDeref j a)) -> Forall P rs.
Proof.
  induction ws as [|a ws IH]; intros i vs rs H HP; simpl in H.
  - injection H as _ <-. constructor.
  - destruct (deref_from (S i) ws) as [vs' rs'] eqn:E.
    assert (Hr : Forall P rs').
    { apply (IH _ _ _ E). intros j b Hj. apply HP. simpl. lia. }
    destruct (Nat.eqb_spec a 0) as [Ea|Ea]; injection H as _ <-; [exact Hr|].
    constructor; [|exact Hr]. apply HP; [simpl; lia|exact Ea].
Qed.

Lemma words_forall (P : rawread -> Prop) n :
  (forall i, i < n -> P (RWord i)) -> Forall P (map RWord (seq 0 n)).
Proof.
  intros H. apply Forall_forall. intros r Hr. apply in_map_iff in Hr.
  destruct Hr as (i & <- & Hi). apply in_seq in Hi. apply H. lia.
Qed.

Lemma validity_limit_le (bs : list blk) n :
  (forall b, In b bs -> b_level b <= n) -> validity_limit bs <= n.
Proof.
  unfold validity_limit, finally_blocks. induction bs as [|b r IH]; intros H; simpl; [lia|].
  destruct (b_type b =? SETUP_FINALLY); simpl.
  - apply Nat.max_lub; [apply H; left; auto | apply IH; intros; apply H; right; auto].
  - apply IH; intros; apply H; right; auto.
Qed.

Definition ex_f310 := mkF true 3 [11; 12; 13; 99; 0] [mkB 122 40 1; mkB 120 7 2; mkB 122 60 2] [].
Example ex_py310 :
  inspect310 ex_f310 = Some ([Some 11; Some 12], [(40, 1); (60, 2)],
                             [RWord 0; RWord 1; RWord 2; RWord 3; RWord 4; RDeref 0 11; RDeref 1 12])
  /\ (forall b, In b (f_blocks ex_f310) -> b_level b <= f_depth ex_f310).
Proof. split; [reflexivity|]. simpl. intros b [<-|[<-|[<-|[]]]]; simpl; lia. Qed.
