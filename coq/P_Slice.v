(* P_Slice.v -- reference specification of "the contiguous sub-sequence outer..inner of the true
   stack, trimmed by a limit" and proofs that the model M_Slice computes it.

   The specification speaks of anchors in the outermost-first true stack; the code works on the
   innermost-first list T of the thread's frames, by list.index positions (greenlet stitching:
   a backward slice of T) or by walking f_back.  The common ground is a decomposition
   T = A ++ p ++ B with the inner anchor first and the outer anchor last in p ([segment]):
   the specification yields rev p ([between_segment]) and so does the code ([slice_exact_seg]). *)
From Coq Require Import ZArith String Lia.
Require Import Base M_Slice P_PySlice.

(* the calling thread's frames, outermost first, ending with the true caller *)
Definition true_stack (w : world) : list nat := rev (thread_frames w).

Fixpoint from_anchor (o : nat) (l : list nat) : list nat :=     (* o and everything inward *)
  match l with
  | [] => []
  | x :: r => if o =? x then l else from_anchor o r
  end.

Fixpoint upto_anchor (i : nat) (l : list nat) : list nat :=     (* everything down to i *)
  match l with
  | [] => []
  | x :: r => if i =? x then [x] else x :: upto_anchor i r
  end.

Definition between (o i : option nat) (ts : list nat) : list nat :=
  let a := match o with Some x => from_anchor x ts | None => ts end in
  match i with Some y => upto_anchor y a | None => a end.

Definition lastn {A} (n : nat) (l : list A) : list A := skipn (length l - n) l.

(* the property text on limits: "a limit keeps the frames nearest the given anchor: outer if
   only outer is given, otherwise inner / the caller" *)
Definition keep_limit (lim : option Z) (o i : option nat) (l : list nat) : list nat :=
  match lim with
  | None => l
  | Some n =>
      match o, i with
      | Some _, None => firstn (Z.to_nat n) l
      | _, _ => lastn (Z.to_nat n) l
      end
  end.

Lemma from_anchor_incl o l x : In x (from_anchor o l) -> In x l.
Proof.
  induction l as [|y l IH]; simpl; [tauto|]. destruct (o =? y); simpl; intuition.
Qed.

Lemma upto_anchor_incl i l x : In x (upto_anchor i l) -> In x l.
Proof.
  induction l as [|y l IH]; simpl; [tauto|]. destruct (i =? y); simpl; intuition.
Qed.

Lemma firstn_incl {A} (l : list A) n x : In x (firstn n l) -> In x l.
Proof. intros H. rewrite <- (firstn_skipn n l). apply in_or_app. auto. Qed.

Lemma skipn_incl {A} (l : list A) n x : In x (skipn n l) -> In x l.
Proof. intros H. rewrite <- (firstn_skipn n l). apply in_or_app. auto. Qed.

Lemma keep_between_incl lim o i ts x : In x (keep_limit lim o i (between o i ts)) -> In x ts.
Proof.
  intros H.
  assert (Hb : In x (between o i ts)).
  { destruct lim as [n|]; simpl in H; [|exact H].
    destruct o, i; first [apply firstn_incl in H | apply skipn_incl in H]; exact H. }
  unfold between in Hb.
  destruct i; [apply upto_anchor_incl in Hb|]; destruct o; try apply from_anchor_incl in Hb; exact Hb.
Qed.


Lemma NoDup_app_l {A} (l1 l2 : list A) : NoDup (l1 ++ l2) -> NoDup l1.
Proof.
  induction l1 as [|x l1 IH]; simpl; intros H; [constructor|].
  inversion H as [|? ? Hn Hd]; subst. constructor; [|auto]. intros HI. apply Hn. apply in_or_app. auto.
Qed.

Lemma NoDup_app_r {A} (l1 l2 : list A) : NoDup (l1 ++ l2) -> NoDup l2.
Proof.
  induction l1 as [|x l1 IH]; simpl; intros H; [exact H|]. inversion H; auto.
Qed.

Lemma NoDup_app_disj {A} (l1 l2 : list A) x : NoDup (l1 ++ l2) -> In x l1 -> ~ In x l2.
Proof.
  induction l1 as [|y l1 IH]; simpl; intros H HI; [tauto|].
  inversion H as [|? ? Hn Hd]; subst. destruct HI as [->|HI]; [|auto].
  intros Hx. apply Hn. apply in_or_app. auto.
Qed.

Lemma NoDup_mid {A} (pre post : list A) x : NoDup (pre ++ x :: post) -> ~ In x pre /\ ~ In x post.
Proof. intros H. pose proof (NoDup_remove_2 _ _ _ H) as N. split; intros HI; apply N, in_or_app; auto. Qed.

(* for concrete lists *)
Lemma NoDup_by_nodup (l : list nat) : nodup Nat.eq_dec l = l -> NoDup l.
Proof. intros <-. apply NoDup_nodup. Qed.

Lemma app_mid {X} (A q B : list X) y : A ++ (q ++ [y]) ++ B = (A ++ q) ++ y :: B.
Proof. rewrite <- !app_assoc. reflexivity. Qed.

Lemma rev_concat {A} (l : list (list A)) : rev (concat l) = concat (rev (map (@rev A) l)).
Proof.
  induction l as [|x l IH]; simpl; [reflexivity|].
  rewrite rev_app_distr, IH, concat_app. simpl. rewrite app_nil_r. reflexivity.
Qed.


(* The first occurrence of x in a list, l = pre ++ x :: post with x not in pre, is where
   list.index, the walks along f_back and the anchors of the specification all stop. *)
Lemma in_split_first x (l : list nat) : In x l -> exists pre post, l = pre ++ x :: post /\ ~ In x pre.
Proof.
  induction l as [|y l IH]; simpl; [tauto|]. intros H.
  destruct (Nat.eq_dec y x) as [->|Hn]; [exists [], l; auto|].
  destruct IH as (pre & post & -> & Hp); [tauto|].
  exists (y :: pre), post. split; [reflexivity|]. simpl. tauto.
Qed.

Lemma index_of_split x pre post : ~ In x pre -> index_of x (pre ++ x :: post) = Some (length pre).
Proof.
  induction pre as [|y pre IH]; simpl; intros H; [rewrite Nat.eqb_refl; reflexivity|].
  destruct (Nat.eqb_spec x y) as [->|_]; [tauto|]. rewrite IH by tauto. reflexivity.
Qed.

Lemma index_of_notin x l : ~ In x l -> index_of x l = None.
Proof.
  induction l as [|y l IH]; simpl; [reflexivity|]. intros H.
  destruct (Nat.eqb_spec x y) as [->|_]; [tauto|]. rewrite IH by tauto. reflexivity.
Qed.

Lemma index_of_None x l : index_of x l = None -> ~ In x l.
Proof.
  intros H HI. destruct (in_split_first _ _ HI) as (pre & post & -> & Hp).
  rewrite (index_of_split _ _ _ Hp) in H. discriminate.
Qed.

Lemma take_until_split x pre post : ~ In x pre -> take_until x (pre ++ x :: post) = Some (pre ++ [x]).
Proof.
  induction pre as [|y pre IH]; simpl; intros H; [rewrite Nat.eqb_refl; reflexivity|].
  destruct (Nat.eqb_spec x y) as [->|_]; [tauto|]. rewrite IH by tauto. reflexivity.
Qed.

Lemma take_until_notin o l : ~ In o l -> take_until o l = None.
Proof.
  induction l as [|y l IH]; simpl; [reflexivity|]. intros H.
  destruct (Nat.eqb_spec o y) as [->|_]; [tauto|]. rewrite IH by tauto. reflexivity.
Qed.

Lemma suffix_from_split x pre post : ~ In x pre -> suffix_from x (pre ++ x :: post) = Some (x :: post).
Proof.
  induction pre as [|y pre IH]; simpl; intros H; [rewrite Nat.eqb_refl; reflexivity|].
  destruct (Nat.eqb_spec x y) as [->|_]; [tauto|]. apply IH. tauto.
Qed.

Lemma suffix_from_none x l : ~ In x l -> suffix_from x l = None.
Proof.
  induction l as [|y l IH]; simpl; [reflexivity|]. intros H.
  destruct (Nat.eqb_spec x y) as [->|_]; [tauto|]. apply IH. tauto.
Qed.

Lemma from_anchor_split x pre post : ~ In x pre -> from_anchor x (pre ++ x :: post) = x :: post.
Proof.
  induction pre as [|y pre IH]; simpl; intros H; [rewrite Nat.eqb_refl; reflexivity|].
  destruct (Nat.eqb_spec x y) as [->|_]; [tauto|]. apply IH. tauto.
Qed.

Lemma upto_anchor_split x pre post : ~ In x pre -> upto_anchor x (pre ++ x :: post) = pre ++ [x].
Proof.
  induction pre as [|y pre IH]; simpl; intros H; [rewrite Nat.eqb_refl; reflexivity|].
  destruct (Nat.eqb_spec x y) as [->|_]; [tauto|]. rewrite IH by tauto. reflexivity.
Qed.

(* in the reversed (outermost-first) list the anchors cut the other way round *)
Lemma from_anchor_rev x pre post :
  NoDup (pre ++ x :: post) -> from_anchor x (rev (pre ++ x :: post)) = x :: rev pre.
Proof.
  intros ND. rewrite rev_app_distr. simpl. rewrite <- app_assoc. apply from_anchor_split.
  rewrite <- in_rev. exact (proj2 (NoDup_mid _ _ _ ND)).
Qed.

Lemma upto_anchor_rev x pre post :
  NoDup (pre ++ x :: post) -> upto_anchor x (rev (pre ++ x :: post)) = rev (x :: post).
Proof.
  intros ND. rewrite rev_app_distr. simpl. rewrite <- app_assoc. apply upto_anchor_split.
  rewrite <- in_rev. exact (proj2 (NoDup_mid _ _ _ ND)).
Qed.

Lemma from_anchor_not_nil o l : In o l -> is_nil (from_anchor o l) = false.
Proof.
  intros H. destruct (in_split_first _ _ H) as (pre & post & -> & Hp).
  rewrite (from_anchor_split _ _ _ Hp). reflexivity.
Qed.

(* T[a : : -1] and T[a : b-1 : -1], as the greenlet branch calls them *)
Lemma py_slice_down {A} (l : list A) a b fi :
  fi = None /\ b = 0 \/ fi = Some (Z.of_nat b - 1)%Z /\ 1 <= b <= length l ->
  py_slice l (Some (Z.of_nat a)) fi (-1)%Z = rev (skipn b (firstn (S a) l)).
Proof.
  intros H. rewrite py_slice_step_m1. unfold norm_bwd. f_equal.
  destruct (Z.ltb_spec (Z.of_nat a) 0); [lia|].
  replace (Z.to_nat (Z.min (Z.of_nat a) (Z.of_nat (length l) - 1) + 1)) with (Nat.min (S a) (length l)) by lia.
  rewrite <- firstn_firstn, firstn_all. f_equal.
  destruct H as [[-> ->]|[-> Hb]]; [reflexivity|].
  destruct (Z.ltb_spec (Z.of_nat b - 1) 0); lia.
Qed.

Lemma del_tail {A} (l : list A) n :
  (1 <= n)%Z -> (n < Z.of_nat (length l))%Z -> del_slice l (Some n) None = firstn (Z.to_nat n) l.
Proof.
  intros H1 H2. unfold del_slice, adj_start, adj_stop, clamp. change (1 <? 0)%Z with false. cbv iota.
  destruct (Z.ltb_spec n 0); [lia|]. destruct (Z.leb_spec (Z.of_nat (length l)) n); [lia|].
  destruct (Z.ltb_spec n (Z.of_nat (length l))); [|lia].
  rewrite Nat2Z.id. rewrite skipn_all. apply app_nil_r.
Qed.

Lemma del_head {A} (l : list A) n :
  (1 <= n)%Z -> (n < Z.of_nat (length l))%Z -> del_slice l None (Some (- n)%Z) = lastn (Z.to_nat n) l.
Proof.
  intros H1 H2. unfold del_slice, adj_start, adj_stop, clamp, lastn. change (1 <? 0)%Z with false. cbv iota.
  destruct (Z.ltb_spec (- n) 0); [|lia].
  destruct (Z.ltb_spec (- n + Z.of_nat (length l)) 0); [lia|].
  destruct (Z.ltb_spec 0 (- n + Z.of_nat (length l))); [|lia].
  simpl firstn. simpl app. f_equal. lia.
Qed.

Definition limit_ok (lim : option Z) : Prop := match lim with None => True | Some n => (1 <= n)%Z end.

Lemma apply_limit_spec frames lim o i :
  limit_ok lim ->
  apply_limit frames lim (negb (is_some i)) (is_some o) = keep_limit lim o i frames.
Proof.
  destruct lim as [n|]; simpl; [|reflexivity]. intros Hn.
  destruct (Z.ltb_spec n (Z.of_nat (length frames))).
  - destruct o, i; simpl; try (apply del_head; assumption). apply del_tail; assumption.
  - assert (E1 : firstn (Z.to_nat n) frames = frames) by (apply firstn_all2; lia).
    assert (E2 : lastn (Z.to_nat n) frames = frames).
    { unfold lastn. replace (length frames - Z.to_nat n) with 0 by lia. reflexivity. }
    destruct o, i; simpl; congruence.
Qed.

(* list.index positions of the anchors in the innermost-first list T *)
Definition apos (T : list nat) (o : option nat) : option nat :=
  match o with None => Some (length T) | Some x => index_of x T end.
Definition bpos (T : list nat) (i : option nat) : option nat :=
  match i with None => Some 0 | Some x => index_of x T end.

(* p is the part of T that begins with the inner anchor and ends with the outer one; a missing
   anchor stands for that end of T *)
Definition segment (T : list nat) (o i : option nat) (A p B : list nat) : Prop :=
  T = A ++ p ++ B /\
  match i with Some x => exists p', p = x :: p' | None => A = [] end /\
  match o with Some y => exists q, p = q ++ [y] | None => B = [] end.

Lemma between_segment T o i A p B :
  NoDup T -> segment T o i A p B -> between o i (rev T) = rev p.
Proof.
  intros ND (-> & Hi & Ho). unfold between. cbv zeta.
  (* the outer anchor cuts B off, then the inner anchor cuts A off *)
  assert (E : match o with Some y => from_anchor y (rev (A ++ p ++ B)) | None => rev (A ++ p ++ B) end
              = rev (A ++ p)).
  { destruct o as [y|]; [|subst B; rewrite app_nil_r; reflexivity].
    destruct Ho as [q ->]. rewrite app_mid in *. rewrite (from_anchor_rev _ _ _ ND), app_assoc, rev_unit.
    reflexivity. }
  rewrite E. destruct i as [x|]; [|subst A; reflexivity].
  destruct Hi as [p' ->]. apply upto_anchor_rev.
  rewrite app_assoc in ND. exact (NoDup_app_l _ _ ND).
Qed.

Lemma apos_segment T o i A p B :
  NoDup T -> segment T o i A p B -> exists a, apos T o = Some a /\ firstn (S a) T = A ++ p.
Proof.
  intros ND (-> & _ & Ho). destruct o as [y|]; cbn [apos].
  - destruct Ho as [q ->]. rewrite app_mid in *. exists (length (A ++ q)). split.
    + apply index_of_split. exact (proj1 (NoDup_mid _ _ _ ND)).
    + replace (S (length (A ++ q))) with (length (A ++ q) + 1) by lia.
      rewrite firstn_app_2, <- app_assoc. reflexivity.
  - subst B. eexists. split; [reflexivity|]. rewrite firstn_all2 by lia. rewrite app_nil_r. reflexivity.
Qed.

Lemma bpos_segment T o i A p B : NoDup T -> segment T o i A p B -> bpos T i = Some (length A).
Proof.
  intros ND (-> & Hi & _). destruct i as [x|]; cbn [bpos]; [|subst A; reflexivity].
  destruct Hi as [p' ->]. apply index_of_split. exact (proj1 (NoDup_mid A (p' ++ B) x ND)).
Qed.

(* the stop index the greenlet branch hands to the slice, M_Slice.greenlet_branch's local from_idx
   by name: Some None = "down to the innermost frame", None = list.index raised ValueError *)
Definition from_idx (T : list nat) (i : option nat) : option (option Z) :=
  match i with
  | None => Some None
  | Some i =>
      if option_eqb Nat.eqb (hd_error T) (Some i) then Some None
      else option_map (fun k => Some (Z.of_nat k - 1)%Z) (index_of i T)
  end.

Lemma greenlet_branch_eq w o i :
  greenlet_branch w o i =
  match from_idx (thread_frames w) i, apos (thread_frames w) o with
  | Some fi, Some a => py_slice (thread_frames w) (Some (Z.of_nat a)) fi (-1)%Z
  | _, _ => []
  end.
Proof.
  unfold greenlet_branch, from_idx, apos.
  destruct i as [i|];
    [destruct (option_eqb Nat.eqb (hd_error (thread_frames w)) (Some i)); [|destruct (index_of i (thread_frames w))]|];
    (destruct o as [o|]; [destruct (index_of o (thread_frames w))|]; reflexivity).
Qed.

(* the inner anchor heads T exactly when A is empty: the slice then runs down to the innermost
   frame; otherwise it stops above index |A| - 1 *)
Lemma from_idx_segment T o i A p B :
  NoDup T -> segment T o i A p B ->
  exists fi, from_idx T i = Some fi
             /\ (fi = None /\ length A = 0
                 \/ fi = Some (Z.of_nat (length A) - 1)%Z /\ 1 <= length A <= length T).
Proof.
  intros ND (-> & Hi & _). destruct i as [x|]; cbn [from_idx]; [|subst A; exists None; auto].
  destruct Hi as [p' ->]. change ((x :: p') ++ B) with (x :: p' ++ B) in *.
  pose proof (proj1 (NoDup_mid _ _ _ ND)) as Hx. rewrite (index_of_split _ _ _ Hx).
  destruct A as [|y A]; simpl hd_error; cbn [option_eqb].
  - rewrite Nat.eqb_refl. exists None. auto.
  - destruct (Nat.eqb_spec y x) as [->|_]; [destruct Hx; left; reflexivity|].
    eexists. split; [reflexivity|]. right. split; [reflexivity|]. rewrite app_length. simpl. lia.
Qed.

Lemma greenlet_branch_segment w o i A p B :
  NoDup (thread_frames w) -> segment (thread_frames w) o i A p B ->
  greenlet_branch w o i = rev p.
Proof.
  intros ND HS. destruct (apos_segment _ _ _ _ _ _ ND HS) as (a & Ha & Hf).
  rewrite greenlet_branch_eq, Ha. destruct (from_idx_segment _ _ _ _ _ _ ND HS) as [fi [-> Hfi]].
  rewrite (py_slice_down _ a _ _ Hfi), Hf, skipn_app, skipn_all, Nat.sub_diag. reflexivity.
Qed.

Lemma greenlet_branch_outer_notin w o i : ~ In o (thread_frames w) -> greenlet_branch w (Some o) i = [].
Proof.
  intros H. rewrite greenlet_branch_eq. simpl apos. rewrite (index_of_notin _ _ H).
  destruct (from_idx _ i); reflexivity.
Qed.

Lemma greenlet_branch_inner_notin w o i : ~ In i (thread_frames w) -> greenlet_branch w o (Some i) = [].
Proof.
  intros H. rewrite greenlet_branch_eq. unfold from_idx. rewrite (index_of_notin _ _ H).
  destruct (thread_frames w) as [|y T]; [reflexivity|]. simpl.
  destruct (Nat.eqb_spec y i) as [->|_]; [destruct H; left|]; reflexivity.
Qed.

Lemma try_chain_segment o p B :
  NoDup (p ++ B) -> match o with Some y => exists q, p = q ++ [y] | None => B = [] end ->
  try_chain o (p ++ B) = rev p.
Proof.
  intros ND Ho. unfold try_chain. destruct o as [y|]; [|subst B; rewrite app_nil_r; reflexivity].
  destruct Ho as [q ->]. rewrite <- app_assoc in *. simpl in *.
  rewrite take_until_split; [reflexivity|exact (proj1 (NoDup_mid _ _ _ ND))].
Qed.

Lemma try_chain_notin o ch : ~ In o ch -> try_chain (Some o) ch = [].
Proof. intros H. unfold try_chain. rewrite take_until_notin by exact H. reflexivity. Qed.

(* stackscope's own frames: what get_true_caller skips *)
Fixpoint take_mine (l : list cframe) : list cframe :=
  match l with
  | f :: r => if skipped f then f :: take_mine r else []
  | [] => []
  end.
Definition own_frames (w : world) : list nat := map cf_id (take_mine (w_cur w)).

Lemma take_drop_mine l : l = take_mine l ++ drop_mine l.
Proof. induction l as [|f l IH]; simpl; [reflexivity|]. destruct (skipped f); simpl; congruence. Qed.

Lemma cur_split w : map cf_id (w_cur w) = own_frames w ++ caller_chain w.
Proof. unfold own_frames, caller_chain. rewrite <- map_app, <- take_drop_mine. reflexivity. Qed.

(* well-formed worlds: frames are pairwise distinct objects *)
Definition wf (w : world) : Prop := NoDup (concat (all_chains w)).

Lemma wf_split w :
  wf w -> NoDup (own_frames w ++ thread_frames w ++ concat (map snd (w_threads w) ++ w_chains w)).
Proof.
  unfold wf, all_chains, thread_frames. simpl. rewrite cur_split, concat_app, <- !app_assoc. auto.
Qed.

Lemma wf_nodup_thread w : wf w -> NoDup (thread_frames w).
Proof. intros H. exact (NoDup_app_l _ _ (NoDup_app_r _ _ (wf_split w H))). Qed.

Lemma own_disjoint w f : wf w -> In f (own_frames w) -> ~ In f (thread_frames w).
Proof.
  intros H HI HT. apply (NoDup_app_disj _ _ f (wf_split w H) HI). apply in_or_app. auto.
Qed.

Lemma find_chain_in cs u x v :
  NoDup (concat cs) -> In (u ++ x :: v) cs -> find_chain x cs = x :: v.
Proof.
  induction cs as [|c r IH]; intros ND Hin; [destruct Hin|]. simpl in *.
  destruct Hin as [->|Hin].
  - rewrite suffix_from_split; [reflexivity|exact (proj1 (NoDup_mid _ _ _ (NoDup_app_l _ _ ND)))].
  - rewrite suffix_from_none; [exact (IH (NoDup_app_r _ _ ND) Hin)|].
    intros H0. apply (NoDup_app_disj _ _ x ND H0). apply in_concat. exists (u ++ x :: v).
    split; [exact Hin|apply in_elt].
Qed.

Lemma chain_from_cur w pre s post :
  wf w -> caller_chain w = pre ++ s :: post -> chain_from w s = s :: post.
Proof.
  intros ND H. apply (find_chain_in _ (own_frames w ++ pre)); [exact ND|].
  left. rewrite cur_split, H, app_assoc. reflexivity.
Qed.

Lemma chain_from_caller w tc : wf w -> true_caller w = Some tc -> chain_from w tc = caller_chain w.
Proof.
  intros ND H. unfold true_caller in H. destruct (caller_chain w) as [|x l] eqn:E; [discriminate|].
  injection H as ->. exact (chain_from_cur w [] tc l ND E).
Qed.

Lemma chain_from_thread w i :
  wf w -> In i (thread_frames w) ->
  exists A v Y, thread_frames w = A ++ i :: v ++ Y /\ chain_from w i = i :: v.
Proof.
  intros ND Hi. unfold thread_frames in *. apply in_app_or in Hi as [Hi|Hi].
  - destruct (in_split _ _ Hi) as (u & v & E). exists u, v, (concat (w_parents w)).
    split; [rewrite E, <- app_assoc; reflexivity|exact (chain_from_cur w u i v ND E)].
  - apply in_concat in Hi as (c & Hc & Hi).
    destruct (in_split _ _ Hc) as (l1 & l2 & El). destruct (in_split _ _ Hi) as (u & v & ->).
    exists (caller_chain w ++ concat l1 ++ u), v, (concat l2). split.
    + rewrite El, concat_app. cbn [concat]. rewrite <- !app_assoc. reflexivity.
    + apply (find_chain_in _ u); [exact ND|]. right. apply in_or_app. left. exact Hc.
Qed.

Definition anchor_ok (w : world) (x : option nat) : Prop :=
  match x with None => True | Some f => In f (true_stack w) end.

(* outer is not inward of inner *)
Definition ordered (w : world) (o i : option nat) : Prop :=
  match o, i with Some o', Some i' => In i' (from_anchor o' (true_stack w)) | _, _ => True end.

Lemma segment_exists w o i :
  NoDup (thread_frames w) -> thread_frames w <> [] ->
  anchor_ok w o -> anchor_ok w i -> ordered w o i ->
  exists A p B, segment (thread_frames w) o i A p B /\ p <> [].
Proof.
  unfold anchor_ok, ordered, true_stack, segment. set (T := thread_frames w).
  intros ND Hne Ho Hi Hord. destruct o as [o|].
  - rewrite <- in_rev in Ho. destruct (in_split _ _ Ho) as (pre & post & E). rewrite E in ND.
    destruct i as [i|].
    + rewrite E, (from_anchor_rev _ _ _ ND), <- rev_unit, <- in_rev in Hord.
      destruct (in_split _ _ Hord) as (A & p' & E').
      destruct (@exists_last _ (i :: p')) as (q & z & Eq); [discriminate|].
      rewrite Eq, app_assoc in E'. apply app_inj_tail in E' as [E' <-].
      exists A, (i :: p'), post. split; [|discriminate].
      split; [|split; [exists p'; reflexivity|exists q; exact Eq]].
      rewrite E, Eq, app_mid, <- E'. reflexivity.
    + exists [], (pre ++ [o]), post. split; [|intros H; destruct pre; discriminate].
      split; [|split; [reflexivity|exists pre; reflexivity]].
      rewrite E, <- app_assoc. reflexivity.
  - destruct i as [i|].
    + rewrite <- in_rev in Hi. destruct (in_split _ _ Hi) as (pre & post & E).
      exists pre, (i :: post), []. split; [|discriminate].
      split; [|split; [exists post; reflexivity|reflexivity]].
      rewrite E, app_nil_r. reflexivity.
    + exists [], T, []. split; [|exact Hne]. split; [|split; reflexivity]. rewrite app_nil_r. reflexivity.
Qed.

Lemma positions w o i :
  NoDup (thread_frames w) -> thread_frames w <> [] ->
  anchor_ok w o -> anchor_ok w i -> ordered w o i ->
  exists a b, apos (thread_frames w) o = Some a /\ bpos (thread_frames w) i = Some b
              /\ b <= a /\ b < length (thread_frames w).
Proof.
  intros ND Hne Ho Hi Hord.
  destruct (segment_exists w o i ND Hne Ho Hi Hord) as (A & p & B & HS & Hp).
  destruct (apos_segment _ _ _ _ _ _ ND HS) as (a & Ha & Hf).
  exists a, (length A). split; [exact Ha|]. split; [exact (bpos_segment _ _ _ _ _ _ ND HS)|].
  apply (f_equal (@length nat)) in Hf. rewrite firstn_length, app_length in Hf.
  pose proof (f_equal (@length nat) (proj1 HS)) as HL. rewrite !app_length in HL.
  destruct p; [congruence|]. cbn [length] in *. lia.
Qed.

Lemma true_caller_thread w : true_caller w <> None -> true_caller w = hd_error (thread_frames w).
Proof.
  unfold true_caller, thread_frames. destruct (caller_chain w); simpl; [congruence|reflexivity].
Qed.

Lemma has_parent_false w : has_parent w = false -> w_parents w = [].
Proof. unfold has_parent. destruct (w_parents w); simpl; [reflexivity|discriminate]. Qed.

(* what unwrap_stackslice does with the frames of the calling thread's attempt: fall back to
   the other threads, raise if nothing was found, apply the limit *)
Definition slice_finish (w : world) (o i : option nat) (lim : option Z) (f2 : list nat) : sres :=
  let f3 := if is_nil f2 && negb (is_some i) then search_threads o (w_threads w) else f2 in
  if is_nil f3 then match o with Some x => SError [x] | None => SAssert end
  else SFrames (apply_limit f3 lim (negb (is_some i)) (is_some o)).

(* unwrap_stackslice when get_true_caller's asserts hold; p is the frame the f_back walk starts at *)
Lemma unwrap_stackslice_eq w o i lim p :
  (has_parent w = true -> true_caller w <> None) ->
  match i with Some x => Some x | None => true_caller w end = Some p ->
  unwrap_stackslice w {| s_outer := o; s_inner := i; s_limit := lim |} =
  let f1 := if has_parent w then greenlet_branch w o i else [] in
  slice_finish w o i lim (if is_nil f1 then try_chain o (chain_from w p) else f1).
Proof.
  intros Htc Hp. unfold unwrap_stackslice, slice_finish. cbn [s_outer s_inner s_limit]. rewrite Hp.
  destruct (has_parent w) eqn:Eact.
  - destruct (true_caller w); [|destruct (Htc eq_refl eq_refl)]. cbn [is_some negb andb].
    destruct (is_nil (greenlet_branch w o i)); reflexivity.
  - reflexivity.
Qed.

Lemma unwrap_stackslice_walk w o i lim p :
  (has_parent w = true -> true_caller w <> None) ->
  match i with Some x => Some x | None => true_caller w end = Some p ->
  greenlet_branch w o i = [] ->
  unwrap_stackslice w {| s_outer := o; s_inner := i; s_limit := lim |}
  = slice_finish w o i lim (try_chain o (chain_from w p)).
Proof.
  intros Htc Hp Hg. rewrite (unwrap_stackslice_eq w o i lim p Htc Hp), Hg.
  destruct (has_parent w); reflexivity.
Qed.

Lemma slice_finish_frames w o i lim f :
  is_nil f = false -> limit_ok lim -> slice_finish w o i lim f = SFrames (keep_limit lim o i f).
Proof.
  intros Hn Hl. unfold slice_finish. rewrite Hn. cbn [andb]. rewrite Hn.
  rewrite apply_limit_spec by exact Hl. reflexivity.
Qed.

(* both code paths yield the segment *)
Lemma slice_exact_seg w o i lim A p B :
  wf w -> true_caller w <> None ->
  segment (thread_frames w) o i A p B -> p <> [] -> limit_ok lim ->
  unwrap_stackslice w {| s_outer := o; s_inner := i; s_limit := lim |}
  = SFrames (keep_limit lim o i (rev p)).
Proof.
  intros ND Htc HS Hne Hlim. pose proof (wf_nodup_thread w ND) as NDT.
  (* the walk starts at the first frame of p: the inner anchor, or the true caller *)
  assert (Hs : exists s p', p = s :: p' /\ match i with Some x => Some x | None => true_caller w end = Some s).
  { destruct HS as (HT & Hi & _). destruct i as [x|]; [destruct Hi as [p' ->]; eauto|].
    destruct p as [|s p']; [congruence|]. exists s, p'. split; [reflexivity|].
    rewrite (true_caller_thread w Htc), HT, Hi. reflexivity. }
  destruct Hs as (s & p' & Ep & Hstart).
  assert (Hnn : is_nil (rev p) = false) by (rewrite Ep; simpl; destruct (rev p'); reflexivity).
  rewrite (unwrap_stackslice_eq w o i lim s (fun _ => Htc) Hstart). cbv zeta.
  rewrite <- (slice_finish_frames w o i lim _ Hnn Hlim). f_equal.
  destruct (has_parent w) eqn:Eact.
  - rewrite (greenlet_branch_segment w o i A p B NDT HS), Hnn. reflexivity.
  - cbn [is_nil]. destruct HS as (HT & _ & Ho). rewrite HT in NDT.
    unfold thread_frames in HT. rewrite (has_parent_false w Eact), app_nil_r, Ep in HT.
    rewrite (chain_from_cur w A s (p' ++ B) ND HT). change (s :: p' ++ B) with ((s :: p') ++ B).
    rewrite <- Ep. exact (try_chain_segment o p B (NoDup_app_r _ _ NDT) Ho).
Qed.

Lemma thread_frames_not_nil w : true_caller w <> None -> thread_frames w <> [].
Proof.
  unfold true_caller, thread_frames. destruct (caller_chain w); simpl; [congruence|discriminate].
Qed.

Theorem slice_exact w o i lim :
  wf w -> true_caller w <> None ->
  anchor_ok w o -> anchor_ok w i -> ordered w o i -> limit_ok lim ->
  unwrap_stackslice w {| s_outer := o; s_inner := i; s_limit := lim |}
  = SFrames (keep_limit lim o i (between o i (true_stack w))).
Proof.
  intros ND Htc Ho Hi Hord Hlim. pose proof (wf_nodup_thread w ND) as NDT.
  destruct (segment_exists w o i NDT (thread_frames_not_nil w Htc) Ho Hi Hord) as (A & p & B & HS & Hp).
  unfold true_stack. rewrite (between_segment _ _ _ _ _ _ NDT HS).
  exact (slice_exact_seg w o i lim A p B ND Htc HS Hp Hlim).
Qed.

(* a contiguous segment p of the thread's frames, asked for by its two ends (this is what
   unwrap_greenlet does): exactly p *)
Lemma slice_segment w A p B i :
  wf w -> true_caller w <> None ->
  thread_frames w = A ++ p ++ B -> hd_error p = Some i ->
  unwrap_stackslice w {| s_outer := Some (last p i); s_inner := Some i; s_limit := None |}
  = SFrames (rev p).
Proof.
  intros Hwf Htc HT Hhd. assert (Hne : p <> []) by (intros ->; discriminate).
  apply (slice_exact_seg w _ _ None A p B Hwf Htc); [|exact Hne|exact I].
  split; [exact HT|]. split; [|exists (removelast p); apply app_removelast_last, Hne].
  destruct p as [|x q]; [discriminate|]. injection Hhd as ->. exists q. reflexivity.
Qed.

(* a non-trivial world meeting every hypothesis of slice_exact: nested greenlets (one parent
   never started), a frame of a module named like stackscope's tests, own frames incl. the
   singledispatch wrapper *)
Definition w_ex : world :=
  {| w_cur := [Build_cframe 50 "stackscope._glue" false; Build_cframe 51 "functools" true;
               Build_cframe 52 "stackscope._extract" false;
               Build_cframe 7 "stackscope._tests.x" false; Build_cframe 6 "app" false];
     w_parents := [[5; 4; 3]; []; [2; 1; 0]];
     w_threads := [(true, []); (false, [12; 11; 10])]; w_chains := [[20]] |}.

Example w_ex_ok :
  wf w_ex /\ true_caller w_ex = Some 7 /\ anchor_ok w_ex (Some 1) /\ anchor_ok w_ex (Some 6)
  /\ ordered w_ex (Some 1) (Some 6) /\ limit_ok (Some 2%Z)
  /\ unwrap_stackslice w_ex {| s_outer := Some 1; s_inner := Some 6; s_limit := Some 2%Z |} = SFrames [5; 6].
Proof.
  split; [apply NoDup_by_nodup; reflexivity|].
  split; [reflexivity|]. split; [vm_compute; tauto|]. split; [vm_compute; tauto|].
  split; [vm_compute; tauto|]. split; [simpl; lia|]. vm_compute. reflexivity.
Qed.

Lemma search_threads_cons o me ch r :
  search_threads o ((me, ch) :: r) =
  if me then search_threads o r
  else if is_nil (try_chain o ch) then search_threads o r else try_chain o ch.
Proof. reflexivity. Qed.

Lemma search_threads_found o pre ch post :
  (forall me c, In (me, c) pre -> me = true \/ ~ In o c) ->
  NoDup ch -> In o ch ->
  search_threads (Some o) (pre ++ (false, ch) :: post) = from_anchor o (rev ch).
Proof.
  intros Hpre ND Hin. induction pre as [|[me c] pre IH]; simpl app; rewrite search_threads_cons.
  - destruct (in_split _ _ Hin) as (u & v & ->).
    unfold try_chain. rewrite (take_until_split _ _ _ (proj1 (NoDup_mid _ _ _ ND))), rev_unit.
    rewrite (from_anchor_rev _ _ _ ND). reflexivity.
  - assert (IH' : search_threads (Some o) (pre ++ (false, ch) :: post) = from_anchor o (rev ch)).
    { apply IH. intros me' c' H. apply (Hpre me' c'). right. exact H. }
    destruct me; [exact IH'|].
    destruct (Hpre false c (or_introl eq_refl)) as [H|H]; [discriminate|].
    rewrite (try_chain_notin o c H). exact IH'.
Qed.

Theorem other_thread_outer w o lim pre ch post :
  wf w -> true_caller w <> None ->
  w_threads w = pre ++ (false, ch) :: post ->
  (forall me c, In (me, c) pre -> me = true \/ ~ In o c) ->
  In o ch -> ~ In o (thread_frames w) -> limit_ok lim ->
  unwrap_stackslice w {| s_outer := Some o; s_inner := None; s_limit := lim |}
  = SFrames (keep_limit lim (Some o) None (from_anchor o (rev ch))).
Proof.
  intros ND Htc Hth Hpre Hin Hnot Hlim.
  destruct (true_caller w) as [tc|] eqn:Etc; [rewrite <- Etc in Htc|congruence].
  assert (NDch : NoDup ch).
  { pose proof (wf_split w ND) as H. rewrite Hth, map_app, !concat_app in H. simpl in H.
    apply NoDup_app_r, NoDup_app_r, NoDup_app_l, NoDup_app_r, NoDup_app_l in H. exact H. }
  rewrite (unwrap_stackslice_walk w (Some o) None lim tc (fun _ => Htc) Etc
             (greenlet_branch_outer_notin w o None Hnot)).
  rewrite (chain_from_caller w tc ND Etc).
  rewrite try_chain_notin by (intros H; apply Hnot, in_or_app; auto).
  unfold slice_finish. cbn [is_nil is_some negb andb].
  rewrite Hth, (search_threads_found o pre ch post Hpre NDch Hin).
  rewrite from_anchor_not_nil by (rewrite <- in_rev; exact Hin).
  rewrite (apply_limit_spec _ lim (Some o) None Hlim). reflexivity.
Qed.

Definition w_thr : world :=
  {| w_cur := [Build_cframe 50 "stackscope._glue" false; Build_cframe 2 "app" false;
               Build_cframe 1 "app" false];
     w_parents := [];
     w_threads := [(true, []); (false, [22; 21; 20]); (false, [12; 11; 10])]; w_chains := [] |}.

Example w_thr_ok :
  wf w_thr /\ unwrap_stackslice w_thr {| s_outer := Some 10; s_inner := None; s_limit := Some 2%Z |}
              = SFrames [10; 11].
Proof. split; [apply NoDup_by_nodup; reflexivity|vm_compute; reflexivity]. Qed.

Theorem until_frame_limit w i lim :
  wf w -> true_caller w <> None -> In i (true_stack w) ->
  (In lim (chain_from w i) ->
     run_api w (AUntilF i lim) = AOk (SFrames (between (Some lim) (Some i) (true_stack w)))
     /\ In lim (true_stack w) /\ In i (from_anchor lim (true_stack w)))
  /\ (~ In lim (chain_from w i) -> run_api w (AUntilF i lim) = ARaised).
Proof.
  intros Hwf Htc Hi. pose proof (wf_nodup_thread w Hwf) as NDT.
  unfold true_stack in *. rewrite <- in_rev in Hi.
  destruct (chain_from_thread w i Hwf Hi) as (A & v & Y & HT & Hch).
  cbn [run_api]. rewrite Hch. split; intros H.
  - (* the limit cuts the chain of inner; up to it lies the segment asked for *)
    destruct (in_split_first _ _ H) as (q & v' & E & Hq).
    rewrite E, (take_until_split _ _ _ Hq).
    assert (HS : segment (thread_frames w) (Some lim) (Some i) A (q ++ [lim]) (v' ++ Y)).
    { split; [|split; [|exists q; reflexivity]].
      - rewrite HT. change (i :: v ++ Y) with ((i :: v) ++ Y). rewrite E, <- !app_assoc. reflexivity.
      - destruct q as [|z q]; injection E as -> _; eexists; reflexivity. }
    assert (Hne : q ++ [lim] <> []) by (destruct q; discriminate).
    pose proof (between_segment _ _ _ _ _ _ NDT HS) as Hb.
    rewrite (slice_exact_seg w _ _ None _ _ _ Hwf Htc HS Hne I), Hb.
    split; [reflexivity|]. split.
    + rewrite <- in_rev, (proj1 HS), app_mid. apply in_elt.
    + apply (upto_anchor_incl i). change (In i (between (Some lim) (Some i) (rev (thread_frames w)))).
      rewrite Hb, <- in_rev. destruct (proj1 (proj2 HS)) as [p' ->]. left. reflexivity.
  - rewrite take_until_notin by exact H. reflexivity.
Qed.

(* the same with the facts about the limit as hypotheses *)
Lemma until_frame_limit_partial w i lim :
  wf w -> true_caller w <> None ->
  In i (true_stack w) -> In lim (true_stack w) -> In i (from_anchor lim (true_stack w)) ->
  (In lim (chain_from w i) ->
     run_api w (AUntilF i lim) = AOk (SFrames (between (Some lim) (Some i) (true_stack w))))
  /\ (~ In lim (chain_from w i) -> run_api w (AUntilF i lim) = ARaised).
Proof.
  intros Hwf Htc Hi _ _. destruct (until_frame_limit w i lim Hwf Htc Hi) as [H1 H2].
  split; [intros H; exact (proj1 (H1 H))|exact H2].
Qed.
