(* P_Frames_Ref.v — proofs relating the executable model M_Frames (extract_iter as coded) to the
   reference interpretation M_FramesRef (documented rules), property C10.

   Both loops of the model and both relations of the reference are first brought into the same
   shape.  One round is described by a small function: [unw_step] for the unwrap loop, the pair
   of queues [requeued] / [ref_step] for the frame at the head of the elaboration queue.  On plain
   configurations the turn equations of P_Frames_Step become [flatten_step] and [run_S_plain] in
   terms of them, and the relations Unw and RefFlat get introduction, induction and inversion rules
   in terms of them.  Everything else is induction on fuel, or on a derivation, with one case per
   kind of round. *)
Require Import Base M_Frames M_FramesRef P_Frames_Step.
From SS.gen Require Import SrcFacts.

(* the sub-domain of property C10: no injected faults, contexts not requested, every hook call
   site guarded (the guard facts are regenerated from the source, see C10.v) *)
Definition plain (c : cfg) : Prop :=
  (forall t, fault c t = false) /\ with_ctx c = false /\
  g_unwrap (grd c) = true /\ g_iter (grd c) = true /\ g_elab (grd c) = true.

(* an entry of either queue as the reference sees it: no origin *)
Definition er_t (e : tent) : sent := (er (fst e), snd e).
Definition er_u (e : qent) : sent := (er (snd (fst e)), snd e).
(* [flatten] wraps every raw python frame, so a queue head that is not a Frame is no frame at all:
   the leaf rule applies *)
Definition nopy (te : list tent) : Prop := forall f d, ~ In (QPy f, d) te.

(* one round of unwrapping, [n] hook calls after the last entry was settled; the dispatch of
   M_FramesRef.ref_unw verbatim *)
Inductive ustep := Leaf (es : list err) | Push (l : list item) (es : list err).

Definition unw_step (c : cfg) (n : nat) (s : sitem) : ustep :=
  if is_frame s then Leaf [] else
  match hook c s with
  | URaise => Leaf [EUnwrap (sid s)]
  | r => if uguard c <=? n then Leaf [ELoop (sq s)] else
         match r with
         | UNone | URaise => Leaf []
         | UOne i => Push [i] []
         | USeq l => Push (somes l) []
         | UIter l b => Push l (if b then [EIter (sid s)] else [])
         end
  end.

Lemma unw_step_push c n s l es : unw_step c n s = Push l es -> l = uitems (hook c s).
Proof.
  unfold unw_step. destruct (is_frame s); [discriminate|].
  destruct (hook c s); try destruct (uguard c <=? n); intros [= <- <-] || discriminate; reflexivity.
Qed.

Lemma flatten_nil c fuel te errs t : flatten (S fuel) 0 c [] (rev te) errs t = FlOk te errs t.
Proof. rewrite P_Frames_Step.flatten_nil, rev_involutive. reflexivity. Qed.

(* [t'] is the tick after the round; the third hypothesis says that a round which records an
   iterator's error passes the g_iter call site. *)
Lemma flatten_step c cnt q t :
  (forall t, fault c t = false) -> g_unwrap (grd c) = true ->
  (forall l e, unw_step c cnt (er q) = Push l [e] -> g_iter (grd c) = true) ->
  exists t', forall fuel org d tu te errs,
  flatten (S fuel) cnt c ((org, q, d) :: tu) te errs t =
  match unw_step c cnt (er q) with
  | Leaf es => flatten fuel 0 c tu ((settled c org q, d) :: te) (rev es ++ errs) t'
  | Push l es => flatten fuel (S cnt) c (pushed c org (S d) l ++ tu) te (rev es ++ errs) t'
  end.
Proof.
  intros NF GU GI. unfold unw_step in *.
  destruct q as [f|f fo|o|]; cbn [er is_frame hook sid sq] in *; try (exists t; reflexivity).
  - exists (match unwrap c o with
            | UIter l b => if uguard c <=? cnt then S t else snd (iter_steps c o l b (S t))
            | _ => S t
            end).
    intros. rewrite flatten_cons. unfold unwrap_head. rewrite NF, GU.
    change (uguard c <? S cnt) with (uguard c <=? cnt).
    destruct (unwrap c o) as [|i|l|l b|]; try destruct (uguard c <=? cnt); try reflexivity.
    rewrite (iter_steps_ff c NF). cbn [snd].
    destruct b; [rewrite (GI l _ eq_refl)|]; reflexivity.
  - exists (S t). intros. rewrite flatten_cons. unfold unwrap_head. rewrite NF, GU.
    change (uguard c <? S cnt) with (uguard c <=? cnt). destruct (uguard c <=? cnt); reflexivity.
Qed.

(* `replacement is None` *)
Definition keeps (e : eres) (next : option qitem) : bool :=
  match e with
  | ENone | EOne RNone => true
  | EOne RNext => match next with None | Some QNone => true | _ => false end
  | _ => false
  end.

(* any other result acts as the sequence of its items: a bare item as the one-element sequence,
   a raise as PRUNE.  [classify_keeps] says the same of the reference. *)
Lemma requeued_keeps c e d rest :
  requeued c e d rest =
  if keeps e (next_of rest) then ([], rest) else requeued c (ESeq (eitems e)) d rest.
Proof.
  destruct e as [|l|[i| |]|]; try reflexivity. simpl. destruct (next_of rest) as [[]|]; reflexivity.
Qed.

Lemma run_S_plain c fuel tu te errs out t :
  plain c ->
  run (S fuel) false c tu te errs out t =
  match flatten (S fuel) 0 c tu (rev te) errs t with
  | FlFuel => (OutOfFuel, t)
  | FlRaised e => (Raised e, t)
  | FlOk ((QFr f org, d) :: rest) errs1 t1 =>
      let q := requeued c (elab c f) d rest in
      run fuel false c (fst q) (snd q) (rev (snd (shown c f)) ++ errs1)
          (FOut f (fst (shown c f)) org [] :: out) (S t1)
  | FlOk te1 errs1 t1 => (Ok (leaf_stack out te1 errs1), t1)
  end.
Proof.
  intros (NF & WC & _ & _ & GE). rewrite run_S.
  destruct (flatten (S fuel) 0 c tu (rev te) errs t) as [[|[[f|f org|o|] d] rest] errs1 t1| |];
    try reflexivity.
  apply run_step_frame; [apply ctx_step_off, WC|apply NF|intros _; exact GE].
Qed.

Lemma Unw_step c n s d rest out es :
  match unw_step c n s with
  | Leaf es0 => Unw c 0 rest out es -> Unw c n ((s, d) :: rest) ((s, d) :: out) (es0 ++ es)
  | Push l es0 => Unw c (S n) (at_depth (S d) (map s_of l) ++ rest) out es ->
                  Unw c n ((s, d) :: rest) out (es0 ++ es)
  end.
Proof.
  unfold unw_step. destruct (is_frame s) eqn:F.
  { destruct s; try discriminate. apply U_frame. }
  destruct (hook c s) eqn:K.
  5: { destruct s; try discriminate. apply U_raise. exact K. }
  all: destruct (Nat.leb_spec (uguard c) n) as [G|G]; intros H.
  1,3,5,7: apply U_guard; auto; congruence.
  - apply U_irreducible; auto.
  - destruct s; try discriminate. exact (U_item c n o i d rest out es K G H).
  - destruct s; try discriminate. exact (U_seq c n o l d rest out es K G H).
  - destruct s; try discriminate. exact (U_iter c n o l raises d rest out es K G H).
Qed.

Lemma Unw_nil c n out es : Unw c n [] out es -> out = [] /\ es = [].
Proof. inversion 1. auto. Qed.

Lemma Unw_step_ind c (Q : nat -> list sent -> list sent -> list err -> Prop) :
  (forall n, Q n [] [] []) ->
  (forall n s d rest out es es0, unw_step c n s = Leaf es0 ->
     Unw c 0 rest out es -> Q 0 rest out es -> Q n ((s, d) :: rest) ((s, d) :: out) (es0 ++ es)) ->
  (forall n s d rest out es l es0, unw_step c n s = Push l es0 ->
     Unw c (S n) (at_depth (S d) (map s_of l) ++ rest) out es ->
     Q (S n) (at_depth (S d) (map s_of l) ++ rest) out es -> Q n ((s, d) :: rest) out (es0 ++ es)) ->
  forall n seq out es, Unw c n seq out es -> Q n seq out es.
Proof.
  (* each constructor of Unw is one branch of unw_step: the errors it records, the items it pushes *)
  intros Q0 QL QP.
  assert (LT : forall n, n < uguard c -> (uguard c <=? n) = false) by (intros; apply Nat.leb_gt; auto).
  induction 1 as [n|n f d rest out es H IH|n o d rest out es K H IH|n s d rest out es F K G H IH
                 |n s d rest out es F K G H IH|n o i d rest out es K G H IH
                 |n o l d rest out es K G H IH|n o l b d rest out es K G H IH];
    [ apply Q0
    | apply QL with (es0 := [])
    | apply QL with (es0 := [EUnwrap o])
    | apply QL with (es0 := [ELoop (sq s)])
    | apply QL with (es0 := [])
    | apply QP with (l := [i]) (es0 := [])
    | apply QP with (l := somes l) (es0 := [])
    | apply QP with (l := l) (es0 := if b then [EIter o] else []) ];
    auto; unfold unw_step; simpl; rewrite ?F, ?K; try rewrite (LT _ G); try reflexivity.
  apply Nat.leb_le in G. rewrite G. destruct (hook c s); congruence.
Qed.

Lemma Unw_step_inv c n s d rest out es : Unw c n ((s, d) :: rest) out es ->
  match unw_step c n s with
  | Leaf es0 => exists out' es', out = (s, d) :: out' /\ es = es0 ++ es' /\ Unw c 0 rest out' es'
  | Push l es0 => exists es', es = es0 ++ es' /\
                              Unw c (S n) (at_depth (S d) (map s_of l) ++ rest) out es'
  end.
Proof.
  intros H. remember ((s, d) :: rest) as seq eqn:E. revert E.
  induction H as [|? ? ? ? ? ? ? US HU _|? ? ? ? ? ? ? ? US HU _] using Unw_step_ind;
    intros [= -> -> ->]; rewrite US; eauto.
Qed.

Lemma Unw_det c n seq out es :
  Unw c n seq out es -> forall out' es', Unw c n seq out' es' -> out = out' /\ es = es'.
Proof.
  induction 1 as [n|n s d rest out es es0 US _ IH|n s d rest out es l es0 US _ IH] using Unw_step_ind;
    intros out' es' H'.
  - apply Unw_nil in H' as [-> ->]. auto.
  - apply Unw_step_inv in H'. rewrite US in H'. destruct H' as (o1 & e1 & -> & -> & H').
    destruct (IH _ _ H') as [-> ->]. auto.
  - apply Unw_step_inv in H'. rewrite US in H'. destruct H' as (e1 & -> & H').
    destruct (IH _ _ H') as [-> ->]. auto.
Qed.

(* the reference's counterpart of [requeued] *)
Definition ref_step (c : cfg) (f d : nat) (rest : list sent) : list sent * list sent :=
  match classify (elab c f) (next_of_s rest) with
  | Keep => ([], rest)
  | Replace l => (at_depth d l ++ survivors d rest, [])
  | Insert l => (at_depth d l ++ redepth_s d rest, [])
  end.

(* the four rules of RefFlat for a frame as one; when the hook keeps the rest nothing is unwrapped
   ([fst] is empty, so [flat] is) and the rest itself is walked on *)
Lemma RefFlat_frame c f d rest flat es1 frs lf es2 :
  Unw c 0 (fst (ref_step c f d rest)) flat es1 ->
  RefFlat c (snd (ref_step c f d rest) ++ flat) (frs, lf, es2) ->
  RefFlat c ((SFrame f, d) :: rest) ((f, fst (shown c f)) :: frs, lf, snd (shown c f) ++ es1 ++ es2).
Proof.
  unfold ref_step, shown.
  destruct (elab c f) eqn:E;
    [assert (NR : elab c f <> ERaise) by congruence;
     destruct (classify _ _) eqn:C; rewrite <- E in C .. | ];
    cbn [fst snd app]; intros HU H.
  (* goals 1, 4, 7 are the Keep cases (first action under ENone, ESeq, EOne): nothing is unwrapped *)
  1,4,7: apply Unw_nil in HU as [-> ->]; rewrite app_nil_r in H.
  all: eauto using RefFlat.
Qed.

Lemma RefFlat_step_ind c (Q : list sent -> rres -> Prop) :
  Q [] ([], [], []) ->
  (forall s d rest, is_frame s = false -> Q ((s, d) :: rest) ([], map fst ((s, d) :: rest), [])) ->
  (forall f d rest flat es1 frs lf es2,
     Unw c 0 (fst (ref_step c f d rest)) flat es1 ->
     RefFlat c (snd (ref_step c f d rest) ++ flat) (frs, lf, es2) ->
     Q (snd (ref_step c f d rest) ++ flat) (frs, lf, es2) ->
     Q ((SFrame f, d) :: rest) ((f, fst (shown c f)) :: frs, lf, snd (shown c f) ++ es1 ++ es2)) ->
  forall flat r, RefFlat c flat r -> Q flat r.
Proof.
  intros Q0 QL QF.
  induction 1 as [|s d rest F|f d rest frs lf es NR C H IH|f d rest l flat es1 frs lf es2 NR C HU H IH
                 |f d rest l flat es1 frs lf es2 NR C HU H IH|f d rest flat es1 frs lf es2 E HU H IH].
  1: exact Q0.
  1: apply QL, F.
  1: generalize (QF f d rest [] [] frs lf es); unfold ref_step;
     rewrite C, (shown_ok _ _ NR), app_nil_r; intros X; apply X; auto; constructor.
  1,2: generalize (QF f d rest flat es1 frs lf es2); unfold ref_step;
       rewrite C, (shown_ok _ _ NR); auto.
  generalize (QF f d rest flat es1 frs lf es2). unfold ref_step, shown. rewrite E. auto.
Qed.

Lemma RefFlat_inv c s d rest r : RefFlat c ((s, d) :: rest) r ->
  match s with
  | SFrame f => exists flat es1 frs lf es2,
      r = ((f, fst (shown c f)) :: frs, lf, snd (shown c f) ++ es1 ++ es2) /\
      Unw c 0 (fst (ref_step c f d rest)) flat es1 /\
      RefFlat c (snd (ref_step c f d rest) ++ flat) (frs, lf, es2)
  | _ => r = ([], map fst ((s, d) :: rest), [])
  end.
Proof.
  intros H. remember ((s, d) :: rest) as flat eqn:E. revert E.
  induction H as [|s' ? ? F|? ? ? ? ? ? ? ? HU H _] using RefFlat_step_ind;
    intros [= <- <- <-]; eauto 10. destruct s'; try discriminate; reflexivity.
Qed.

Lemma RefFlat_det c flat r : RefFlat c flat r -> forall r', RefFlat c flat r' -> r = r'.
Proof.
  induction 1 as [|s d rest F|f d rest flat es1 frs lf es2 HU _ IH] using RefFlat_step_ind; intros r' H'.
  - inversion H'. reflexivity.
  - apply RefFlat_inv in H'. destruct s; try discriminate; auto.
  - apply RefFlat_inv in H'. destruct H' as (flat' & es1' & frs' & lf' & es2' & -> & HU' & H').
    destruct (Unw_det _ _ _ _ _ HU _ _ HU') as [-> ->]. apply IH in H'. congruence.
Qed.

Lemma Ref_det c seq r r' : Ref c seq r -> Ref c seq r' -> r = r'.
Proof.
  intros H H'. inversion H as [? flat es1 frs lf es2 HU HF].
  inversion H' as [? flat' es1' frs' lf' es2' HU' HF']. subst.
  destruct (Unw_det _ _ _ _ _ HU _ _ HU') as [-> ->].
  pose proof (RefFlat_det _ _ _ HF _ HF') as E. congruence.
Qed.

Lemma ref_unw_sound c : forall fuel n seq out es,
  ref_unw fuel n c seq = Some (out, es) -> Unw c n seq out es.
Proof.
  induction fuel as [|fuel IH]; intros n seq out es; [discriminate|].
  destruct seq as [|[s d] rest]; [intros [= <- <-]; constructor|].
  (* ref_unw dispatches as unw_step does: the same case analysis reduces both *)
  pose proof (Unw_step c n s d rest) as US. unfold unw_step in US. cbn [ref_unw].
  destruct (is_frame s); [|destruct (hook c s); try destruct (uguard c <=? n)];
    (destruct (ref_unw fuel _ c _) as [[o e]|] eqn:R; intros [= <- <-]; apply US, IH, R).
Qed.

Lemma ref_flat_sound c ufuel : forall fuel flat r,
  ref_flat ufuel fuel c flat = Some r -> RefFlat c flat r.
Proof.
  induction fuel as [|fuel IH]; intros flat r; [discriminate|].
  destruct flat as [|[s d] rest]; [intros [= <-]; constructor|].
  destruct s as [f|o|]; try (intros [= <-]; apply RF_leaf; reflexivity).
  pose proof (RefFlat_frame c f d rest) as RF. unfold ref_step, shown in RF. cbn [ref_flat].
  destruct (elab c f); [destruct (classify _ _) .. | ]; cbn in RF.
  (* goals 1, 4, 7: the Keep cases again *)
  1,4,7: destruct (ref_flat ufuel fuel c rest) as [[[frs lf] es]|] eqn:F; intros [= <-];
         apply (RF [] []); [constructor|rewrite app_nil_r; auto].
  all: destruct (ref_unw ufuel 0 c _) as [[flat es1]|] eqn:U; [|discriminate];
       destruct (ref_flat ufuel fuel c flat) as [[[frs lf] es2]|] eqn:F; intros [= <-];
       eapply RF; [eapply ref_unw_sound, U|apply IH, F].
Qed.

Lemma ref_run_sound c fuel seq r : ref_run fuel c seq = Some r -> Ref c seq r.
Proof.
  unfold ref_run.
  destruct (ref_unw fuel 0 c seq) as [[flat es1]|] eqn:R; [|discriminate].
  destruct (ref_flat fuel fuel c flat) as [[[frs lf] es2]|] eqn:F; intros [= <-].
  econstructor; [eapply ref_unw_sound|eapply ref_flat_sound]; eauto.
Qed.

Lemma nopy_nil : nopy []. Proof. intros f d H; inversion H. Qed.
Lemma nopy_tail x te : nopy (x :: te) -> nopy te.
Proof. intros H f d I. apply (H f d). right. exact I. Qed.
Lemma nopy_cons q d te : (forall f, q <> QPy f) -> nopy te -> nopy ((q, d) :: te).
Proof. intros N H f d' [E|I]; [inversion E; subst; eapply N; eauto | eapply H; eauto]. Qed.
Lemma nopy_app a b : nopy a -> nopy b -> nopy (a ++ b).
Proof. intros A B f d I. apply in_app_or in I as [I|I]; [eapply A|eapply B]; eauto. Qed.

Lemma er_u_pushed c org d l : map er_u (pushed c org d l) = at_depth d (map s_of l).
Proof. unfold pushed, at_depth. rewrite !map_map. apply map_ext. intros [f|o]; reflexivity. Qed.

Lemma flatten_unw c (P : plain c) : forall fuel cnt tu te errs t,
  match flatten fuel cnt c tu te errs t with
  | FlFuel => True
  | FlRaised _ => False
  | FlOk te' errs' _ =>
      exists flat es, te' = rev te ++ flat /\ errs' = rev es ++ errs /\
                      Unw c cnt (map er_u tu) (map er_t flat) es /\ nopy flat
  end.
Proof.
  destruct P as (NF & _ & GU & GI & _).
  induction fuel as [|fuel IH]; intros cnt tu te errs t; [exact I|].
  destruct tu as [|[[org q] d] tu].
  { exists [], []. rewrite app_nil_r. repeat split; auto using nopy_nil. constructor. }
  destruct (flatten_step c cnt q t NF GU (fun _ _ _ => GI)) as [t' ->].
  pose proof (Unw_step c cnt (er q) d (map er_u tu)) as US.
  destruct (unw_step c cnt (er q)) as [es0|l es0].
  - specialize (IH 0 tu ((settled c org q, d) :: te) (rev es0 ++ errs) t').
    destruct (flatten fuel 0 c tu _ _ t'); auto.
    destruct IH as (flat & es & -> & -> & HU & HN).
    exists ((settled c org q, d) :: flat), (es0 ++ es).
    split; [simpl; rewrite <- app_assoc; reflexivity|].
    split; [rewrite rev_app_distr, app_assoc; reflexivity|]. split.
    + cbn [map]. replace (er_t (settled c org q, d)) with (er q, d) by (destruct q; reflexivity).
      apply US, HU.
    + apply nopy_cons; auto. destruct q; discriminate.
  - specialize (IH (S cnt) (pushed c org (S d) l ++ tu) te (rev es0 ++ errs) t').
    destruct (flatten fuel (S cnt) c _ te _ t'); auto.
    destruct IH as (flat & es & -> & -> & HU & HN).
    rewrite map_app, er_u_pushed in HU.
    exists flat, (es0 ++ es). rewrite rev_app_distr, app_assoc. auto.
Qed.

Lemma next_of_er rest : next_of_s (map er_t rest) = option_map er (next_of rest).
Proof. destruct rest as [|[q d] r]; reflexivity. Qed.

Lemma conc_er next r : er (conc next r) = conc_s (option_map er next) r.
Proof. destruct r as [[f|o]| |]; simpl; auto. destruct next; reflexivity. Qed.

Lemma ends_is_next next l :
  ends_with_next next l =
  match rev l with r :: _ => is_next (option_map er next) r | [] => false end.
Proof.
  unfold ends_with_next, last_opt. destruct (rev l) as [|r pre]; auto.
  destruct r as [[f|o]| |]; destruct next as [[]|]; reflexivity.
Qed.

Lemma rev_cons_inv {A} (l : list A) r pre : rev l = r :: pre -> l = rev pre ++ [r].
Proof. intros E. rewrite <- (rev_involutive l), E. reflexivity. Qed.

Lemma er_u_mk c next d l :
  map er_u (map (fun q => (better_origin c q None, q, d)) (map (conc next) l))
  = at_depth d (map (conc_s (option_map er next)) l).
Proof.
  unfold at_depth. rewrite !map_map. apply map_ext. intros r. unfold er_u. simpl.
  rewrite conc_er. reflexivity.
Qed.

Lemma er_u_requeue rest : map er_u (requeue rest) = map er_t rest.
Proof. unfold requeue. rewrite map_map. apply map_ext. intros [q d]. reflexivity. Qed.

Lemma er_u_dropge d : forall q, map er_u (dropge d q) = survivors d (map er_u q).
Proof.
  induction q as [|[[o i] d'] q IH]; simpl; auto.
  unfold survivors in *. simpl. destruct (d <=? d'); auto.
Qed.

Lemma er_u_redepth d q : map er_u (redepth d q) = redepth_s d (map er_u q).
Proof. destruct q as [|[[o i] d'] q]; reflexivity. Qed.

Lemma requeued_seq_ref c d rest l :
  match seq_action (next_of_s (map er_t rest)) l with
  | Keep => ([], map er_t rest)
  | Replace l' => (at_depth d l' ++ survivors d (map er_t rest), [])
  | Insert l' => (at_depth d l' ++ redepth_s d (map er_t rest), [])
  end = (map er_u (fst (requeued c (ESeq l) d rest)), []).
Proof.
  unfold requeued, seq_action. cbn [fst]. rewrite ends_is_next, next_of_er.
  destruct (rev l) as [|r pre] eqn:R.
  - rewrite <- (rev_involutive l), R, map_app, er_u_mk, er_u_dropge, er_u_requeue. reflexivity.
  - destruct (is_next (option_map er (next_of rest)) r).
    + rewrite map_app, er_u_mk, er_u_redepth, er_u_requeue, (rev_cons_inv _ _ _ R), removelast_last.
      reflexivity.
    + rewrite map_app, er_u_mk, er_u_dropge, er_u_requeue. reflexivity.
Qed.

Lemma classify_keeps e rest :
  classify e (next_of_s (map er_t rest)) =
  if keeps e (next_of rest) then Keep else classify (ESeq (eitems e)) (next_of_s (map er_t rest)).
Proof.
  destruct e as [|l|[i| |]|]; try reflexivity.
  simpl. rewrite next_of_er. destruct (next_of rest) as [[]|]; reflexivity.
Qed.

Lemma requeued_ref c f d rest :
  ref_step c f d (map er_t rest) =
  (map er_u (fst (requeued c (elab c f) d rest)), map er_t (snd (requeued c (elab c f) d rest))).
Proof.
  unfold ref_step. rewrite classify_keeps, requeued_keeps.
  destruct (keeps (elab c f) (next_of rest)); [reflexivity|apply requeued_seq_ref].
Qed.

(* list bookkeeping for the frame case of [run_ref] *)
Lemma view_after_yield (s : stack) f h org cx out frs lf es0 es errs tail :
  view s = (map view_frame (rev (FOut f h org cx :: out)) ++ frs, lf,
            rev (rev es0 ++ rev es ++ errs) ++ tail) ->
  view s = (map view_frame (rev out) ++ (f, h) :: frs, lf, rev errs ++ es ++ es0 ++ tail).
Proof.
  intros ->. simpl. rewrite map_app, !rev_app_distr, !rev_involutive, <- !app_assoc. reflexivity.
Qed.

Lemma leaf_ref c out te errs : nopy te -> frameless te ->
  exists lf, RefFlat c (map er_t te) ([], lf, []) /\
             view (leaf_stack out te errs) = (map view_frame (rev out), lf, rev errs).
Proof.
  destruct te as [|[[f|f o|o|] d] rest]; intros NP F; try contradiction.
  - exists []. split; [constructor|reflexivity].
  - exfalso. apply (NP f d). left. reflexivity.
  - exists (map fst (map er_t ((QObj o, d) :: rest))). split; [apply RF_leaf; reflexivity|].
    destruct rest; simpl; rewrite ?map_map; reflexivity.
  - exists (map fst (map er_t ((QNone, d) :: rest))). split; [apply RF_leaf; reflexivity|].
    destruct rest; simpl; rewrite ?map_map; reflexivity.
Qed.

Lemma run_ref c (P : plain c) : forall fuel tu te errs out t,
  nopy te ->
  match run fuel false c tu te errs out t with
  | (OutOfFuel, _) => True
  | (Raised _, _) => False
  | (Ok s, _) =>
      exists sflat es1 frs lf es2,
        Unw c 0 (map er_u tu) sflat es1 /\
        RefFlat c (map er_t te ++ sflat) (frs, lf, es2) /\
        view s = (map view_frame (rev out) ++ frs, lf, rev errs ++ es1 ++ es2)
  end.
Proof.
  induction fuel as [|fuel IH]; intros tu te errs out t NP; [exact I|].
  rewrite (run_S_plain c fuel tu te errs out t P).
  pose proof (flatten_unw c P (S fuel) 0 tu (rev te) errs t) as FU.
  destruct (flatten (S fuel) 0 c tu (rev te) errs t) as [te1 errs1 t1| |]; [|contradiction|exact I].
  destruct FU as (flat & es & E1 & -> & HU & HN). rewrite rev_involutive in E1.
  assert (NP1 : nopy te1) by (subst te1; apply nopy_app; auto).
  assert (MAP : map er_t te ++ map er_t flat = map er_t te1) by (subst te1; rewrite map_app; auto).
  destruct te1 as [|[[f'|f org|o|] d] rest].
  1,2,4,5: destruct (leaf_ref c out _ (rev es ++ errs) NP1 I) as (lf & HR & ->);
    exists (map er_t flat), es, [], lf, []; rewrite MAP, !app_nil_r, rev_app_distr, rev_involutive; auto.
  (* a frame *)
  pose proof (requeued_ref c f d rest) as FS.
  assert (NP2 : nopy (snd (requeued c (elab c f) d rest)))
    by (rewrite requeued_keeps; destruct (keeps _ _); [exact (nopy_tail _ _ NP1)|exact nopy_nil]).
  destruct (requeued c (elab c f) d rest) as [tu' te']; cbn [fst snd] in *.
  specialize (IH tu' te' (rev (snd (shown c f)) ++ rev es ++ errs)
                 (FOut f (fst (shown c f)) org [] :: out) (S t1) NP2).
  revert IH. destruct (run fuel false c tu' te' _ _ (S t1)) as [[s| |] t']; trivial.
  intros (sflat & es1 & frs & lf & es2 & HU' & HR & HV).
  exists (map er_t flat), es, ((f, fst (shown c f)) :: frs), lf, (snd (shown c f) ++ es1 ++ es2).
  rewrite MAP. repeat split; auto.
  - apply (RefFlat_frame c f d (map er_t rest) sflat es1 frs lf es2); rewrite FS; assumption.
  - apply (view_after_yield s f _ org [] out frs lf _ es errs (es1 ++ es2)). exact HV.
Qed.

Lemma root_q_er c root : map er_u (root_q c root) = [(s_of root, 0)].
Proof. destruct root; reflexivity. Qed.

Lemma run_root_ref c root fuel t r t' :
  plain c -> run fuel false c (root_q c root) [] [] [] t = (r, t') -> r <> OutOfFuel ->
  exists s, r = Ok s /\ Ref c [(s_of root, 0)] (view s).
Proof.
  intros P E NF. pose proof (run_ref c P fuel (root_q c root) [] [] [] t nopy_nil) as H.
  rewrite E in H. destruct r as [s|e|]; [|contradiction|congruence].
  destruct H as (sflat & es1 & frs & lf & es2 & HU & HR & HV).
  exists s. split; auto. rewrite HV. simpl. rewrite root_q_er in HU. econstructor; eauto.
Qed.

Lemma run_root_ref_fst c root fuel :
  plain c -> fst (run fuel false c (root_q c root) [] [] [] 0) <> OutOfFuel ->
  exists s, fst (run fuel false c (root_q c root) [] [] [] 0) = Ok s /\ Ref c [(s_of root, 0)] (view s).
Proof.
  intros P NF.
  destruct (run fuel false c (root_q c root) [] [] [] 0) as [r t'] eqn:E.
  eapply run_root_ref; eauto.
Qed.

Lemma model_eq_ref c root :
  plain c -> extract c root <> OutOfFuel ->
  exists s, extract c root = Ok s /\ Ref c [(s_of root, 0)] (view s).
Proof. exact (run_root_ref_fst c root default_fuel). Qed.

Lemma extract_ref c root s : plain c -> extract c root = Ok s -> Ref c [(s_of root, 0)] (view s).
Proof. intros P E. destruct (model_eq_ref c root P) as (s' & E' & HR); congruence. Qed.

Lemma model_eq_ref_unique c root s r :
  plain c -> extract c root = Ok s -> Ref c [(s_of root, 0)] r -> view s = r.
Proof. intros P E. apply Ref_det, extract_ref; assumption. Qed.

Lemma model_eq_ref_run c root s r fuel :
  plain c -> extract c root = Ok s -> ref_run fuel c [(s_of root, 0)] = Some r -> view s = r.
Proof. intros P E HR. exact (model_eq_ref_unique c root s r P E (ref_run_sound c fuel _ r HR)). Qed.

Lemma take_drop_while {A} (p : A -> bool) l : take_while p l ++ drop_while p l = l.
Proof. induction l as [|x l IH]; simpl; auto. destruct (p x); simpl; congruence. Qed.
Lemma take_while_all {A} (p : A -> bool) l : Forall (fun x => p x = true) (take_while p l).
Proof. induction l as [|x l IH]; simpl; auto. destruct (p x) eqn:E; auto. Qed.
Lemma drop_while_head {A} (p : A -> bool) l x r : drop_while p l = x :: r -> p x = false.
Proof.
  induction l as [|y l IH]; simpl; [discriminate|]. destruct (p y) eqn:E; auto.
  intros H; inversion H; subst; auto.
Qed.

Lemma callees_survivors {A} d (rest : list (A * nat)) :
  rest = callees d rest ++ survivors d rest /\
  Forall (fun e => d <= snd e) (callees d rest) /\
  (forall x d' k, survivors d rest = (x, d') :: k -> d' < d).
Proof.
  unfold callees, survivors. split; [symmetry; apply take_drop_while|]. split.
  - eapply Forall_impl; [|apply take_while_all]. intros a H. apply Nat.leb_le. exact H.
  - intros x d' k H. apply drop_while_head in H. simpl in H. apply Nat.leb_gt in H. exact H.
Qed.

Lemma survivors_map d (rest : list tent) : survivors d (map er_t rest) = map er_t (survivors d rest).
Proof.
  unfold survivors. induction rest as [|[q d'] r IH]; simpl; auto. destruct (d <=? d'); auto.
Qed.

(* x is a Stack whose view is [out], then f with hide flag h, then the reference result of [seq];
   [pre] are the errors of f's own hook *)
Definition run_result_is (c : cfg) (x : outcome * nat) (out : list fout) (errs : list err)
           (f : nat) (h : bool) (pre : list err) (seq : list sent) : Prop :=
  match x with
  | (Ok s, _) => exists frs lf es, Ref c seq (frs, lf, es) /\
       view s = (map view_frame (rev out) ++ (f, h) :: frs, lf, rev errs ++ pre ++ es)
  | (Raised _, _) => False
  | (OutOfFuel, _) => True
  end.
(* Keep: nothing is re-unwrapped, the rest is walked as it is *)
Definition keep_result_is (c : cfg) (x : outcome * nat) (out : list fout) (errs : list err)
           (f : nat) (flat : list sent) : Prop :=
  match x with
  | (Ok s, _) => exists frs lf es, RefFlat c flat (frs, lf, es) /\
       view s = (map view_frame (rev out) ++ (f, prehide c f) :: frs, lf, rev errs ++ es)
  | (Raised _, _) => False
  | (OutOfFuel, _) => True
  end.

(* what the reference says about a frame f of depth d standing before the unwrapped rest *)
Definition frame_spec (c : cfg) (x : outcome * nat) (out : list fout) (errs : list err)
           (f d : nat) (rest : list sent) : Prop :=
  match elab c f with
  | ERaise => run_result_is c x out errs f false [EElab f] (survivors d rest)
  | e =>
    match classify e (next_of_s rest) with
    | Keep => keep_result_is c x out errs f rest
    | Replace l => run_result_is c x out errs f (prehide c f) [] (at_depth d l ++ survivors d rest)
    | Insert l => run_result_is c x out errs f (prehide c f) [] (at_depth d l ++ redepth_s d rest)
    end
  end.

Lemma frame_spec_ref_step c x out errs f d rest :
  frame_spec c x out errs f d rest =
  match classify (elab c f) (next_of_s rest) with
  | Keep => keep_result_is c x out errs f rest
  | _ => run_result_is c x out errs f (fst (shown c f)) (snd (shown c f)) (fst (ref_step c f d rest))
  end.
Proof.
  unfold frame_spec, ref_step, shown. destruct (elab c f); [destruct (classify _ _) .. | ]; reflexivity.
Qed.

Lemma run_frame_ref c (P : plain c) fuel f org d rest errs out t :
  nopy rest ->
  frame_spec c (run fuel false c [] ((QFr f org, d) :: rest) errs out t) out errs f d (map er_t rest).
Proof.
  intros NP. assert (NP' : nopy ((QFr f org, d) :: rest)) by (apply nopy_cons; auto; discriminate).
  generalize (run_ref c P fuel [] _ errs out t NP').
  rewrite frame_spec_ref_step. unfold keep_result_is, run_result_is.
  destruct (run fuel false c [] _ errs out t) as [[s| |] t'];
    [|contradiction|destruct (classify _ _); trivial].
  intros (sflat & es1 & frs & lf & es2 & HU & HR & ->). apply Unw_nil in HU as [-> ->].
  rewrite app_nil_r in HR. apply RefFlat_inv in HR.
  destruct HR as (flat & es1 & frs' & lf' & es2' & [= -> -> ->] & HU' & HR).
  unfold ref_step in *. destruct (classify (elab c f) _) eqn:C; cbn [fst snd app] in *.
  2,3: eexists _, _, (es1 ++ es2'); split; [econstructor; eauto|reflexivity].
  apply Unw_nil in HU' as [-> ->]. rewrite app_nil_r in HR.
  rewrite shown_ok by (intros E; rewrite E in C; discriminate). eauto.
Qed.

(* `items[-1] is next_inner` *)
Definition ends_next (next : option sitem) (l : list ritem) : bool :=
  match rev l with r :: _ => is_next next r | [] => false end.

Lemma seq_action_replace next l :
  ends_next next l = false -> seq_action next l = Replace (map (conc_s next) l).
Proof.
  unfold ends_next, seq_action. destruct (rev l) as [|r pre] eqn:R.
  - rewrite <- (rev_involutive l), R. reflexivity.
  - intros ->. reflexivity.
Qed.

Lemma seq_action_insert next l r :
  is_next next r = true -> seq_action next (l ++ [r]) = Insert (map (conc_s next) l).
Proof. unfold seq_action. rewrite rev_app_distr. simpl. intros ->. rewrite rev_involutive. reflexivity. Qed.

Lemma run_frame_seq c (P : plain c) fuel f org d rest errs out t l :
  nopy rest -> elab c f = ESeq l ->
  let x := run fuel false c [] ((QFr f org, d) :: rest) errs out t in
  match seq_action (next_of_s (map er_t rest)) l with
  | Keep => True
  | Replace l' =>
      run_result_is c x out errs f (prehide c f) [] (at_depth d l' ++ map er_t (survivors d rest))
  | Insert l' =>
      run_result_is c x out errs f (prehide c f) [] (at_depth d l' ++ redepth_s d (map er_t rest))
  end.
Proof.
  intros NP E. pose proof (run_frame_ref c P fuel f org d rest errs out t NP) as H.
  unfold frame_spec in H. rewrite E in H. cbn [classify] in H. rewrite survivors_map in H.
  destruct (seq_action _ l); [exact I|exact H..].
Qed.

(* the depth bookkeeping of the insert form: only next_inner may change depth, to min d d' *)
Lemma redepth_s_spec d rest :
  map fst (redepth_s d rest) = map fst rest /\
  match rest, redepth_s d rest with
  | (_, d') :: r, (_, d'') :: r' => d'' = Nat.min d d' /\ r' = r
  | [], [] => True
  | _, _ => False
  end.
Proof. destruct rest as [|[s d'] r]; simpl; auto. Qed.

Fixpoint frame_prefix (c : cfg) (flat : list sent) : list (nat * bool) :=
  match flat with (SFrame f, _) :: r => (f, prehide c f) :: frame_prefix c r | _ => [] end.
Fixpoint after_frames (flat : list sent) : list sent :=
  match flat with (SFrame _, _) :: r => after_frames r | _ => flat end.

Lemma Ref_all_none c seq r : (forall f, elab c f = ENone) -> Ref c seq r ->
  exists flat es, Unw c 0 seq flat es /\ r = (frame_prefix c flat, map fst (after_frames flat), es).
Proof.
  intros AN [? flat es1 frs lf es2 HU HF]. exists flat, es1. split; [exact HU|].
  assert (E : (frs, lf, es2) = (frame_prefix c flat, map fst (after_frames flat), [])).
  { clear HU. induction HF as [|s d rest F|f d rest ? ? ? ? ? HU _ IH] using RefFlat_step_ind.
    - reflexivity.
    - destruct s; try discriminate; reflexivity.
    - revert HU IH. unfold ref_step, shown. rewrite AN. cbn. intros HU IH.
      apply Unw_nil in HU as [-> ->]. rewrite app_nil_r in IH. injection IH as -> -> ->. reflexivity. }
  injection E as -> -> ->. rewrite app_nil_r. reflexivity.
Qed.

(* a linear chain o 0 -> o 1 -> ... that reaches neither a frame nor None within [uguard c]
   unwraps: the (uguard c + 1)-th hook call is refused *)
Section Guard.
Variables (c : cfg) (o : nat -> nat).
Hypothesis NF : forall t, fault c t = false.
Hypothesis GU : g_unwrap (grd c) = true.
Hypothesis CH : forall k, k < uguard c -> unwrap c (o k) = UOne (IObj (o (S k))).
Hypothesis NR : unwrap c (o (uguard c)) <> URaise.

Lemma flatten_chain : forall m j, j + m = uguard c ->
  forall fuel org d te errs t, m + 2 <= fuel ->
  exists t', flatten fuel j c [(org, QObj (o j), d)] te errs t =
             FlOk (rev ((QObj (o (uguard c)), d + m) :: te)) (ELoop (QObj (o (uguard c))) :: errs) t'.
Proof.
  induction m as [|m IH]; intros j EJ fuel org d te errs t LE; (destruct fuel as [|fuel]; [lia|]).
  - rewrite Nat.add_0_r in *. subst j.
    assert (US : unw_step c (uguard c) (SObj (o (uguard c))) = Leaf [ELoop (QObj (o (uguard c)))]).
    { unfold unw_step. cbn [is_frame hook sq]. rewrite Nat.leb_refl.
      destruct (unwrap c (o (uguard c))); congruence. }
    destruct (flatten_step c (uguard c) (QObj (o (uguard c))) t NF GU) as [t' ->];
      cbn [er]; rewrite US; [discriminate|].
    destruct fuel as [|fuel]; [lia|]. exists t'. reflexivity.
  - assert (US : unw_step c j (SObj (o j)) = Push [IObj (o (S j))] []).
    { unfold unw_step. cbn [is_frame hook]. rewrite (CH j), (proj2 (Nat.leb_gt _ _)) by lia. reflexivity. }
    destruct (flatten_step c j (QObj (o j)) t NF GU) as [t' ->];
      cbn [er]; rewrite US; [discriminate|].
    replace (d + S m) with (S d + m) by lia. apply IH; lia.
Qed.

Lemma guard_run fuel t :
  uguard c + 2 <= fuel ->
  fst (run fuel false c (root_q c (IObj (o 0))) [] [] [] t)
  = Ok (Stack [] (LOne (QObj (o (uguard c)))) [ELoop (QObj (o (uguard c)))]).
Proof.
  intros LE. destruct fuel as [|fuel]; [lia|].
  destruct (flatten_chain (uguard c) 0 eq_refl (S fuel)
              (better_origin c (QObj (o 0)) None) 0 [] [] t) as [t' E]; [lia|].
  rewrite run_S. unfold root_q. cbn [q_of rev]. rewrite E. reflexivity.
Qed.

End Guard.

(* c2 is c except that object o, whose hook in c returns an iterator that contributes the items l
   (the non-None values it yields) and then stops or raises, returns in c2 a plain sequence l2 with
   the same non-None entries (None entries anywhere in between) *)
Definition iter_as_seq (c c2 : cfg) (o : nat) (l : list item) : Prop :=
  (exists b, unwrap c o = UIter l b) /\ (exists l2, unwrap c2 o = USeq l2 /\ somes l2 = l) /\
  (forall o', o' <> o -> unwrap c2 o' = unwrap c o') /\
  (forall f, elab c2 f = elab c f) /\ (forall f, prehide c2 f = prehide c f) /\
  uguard c2 = uguard c.

Lemma somes_map_Some {A} (l : list A) : somes (map Some l) = l.
Proof. exact (eq_trans (somes_map (fun x => x) l) (map_id l)). Qed.

Section IterAsSeq.
Variables (c c2 : cfg) (o : nat) (l : list item).
Hypothesis IS : iter_as_seq c c2 o l.

Lemma unw_step_iter_as_seq n s :
  match unw_step c n s with
  | Leaf es => unw_step c2 n s = Leaf es
  | Push k _ => exists es', unw_step c2 n s = Push k es'
  end.
Proof.
  destruct IS as ([b U1] & (l2 & U2 & SL) & UO & _ & _ & UG). unfold unw_step. rewrite UG.
  destruct s as [f|o'|]; cbn [is_frame hook sid sq]; [reflexivity| |destruct (_ <=? _); reflexivity].
  destruct (Nat.eq_dec o' o) as [->|NE].
  - rewrite U1, U2, SL. destruct (uguard c <=? n); eauto.
  - rewrite (UO o' NE). destruct (unwrap c o'); try destruct (uguard c <=? n); eauto.
Qed.

Lemma Unw_iter_as_seq n seq out es : Unw c n seq out es -> exists es', Unw c2 n seq out es'.
Proof.
  induction 1 as [n|n s d rest out es es0 US _ [es' IH]|n s d rest out es k es0 US _ [es' IH]]
    using Unw_step_ind;
    [eexists; constructor | ..];
    pose proof (unw_step_iter_as_seq n s) as S2; rewrite US in S2;
    pose proof (Unw_step c2 n s d rest out es') as I2.
  - rewrite S2 in I2. eauto.
  - destruct S2 as [e2 S2]. rewrite S2 in I2. eauto.
Qed.

Lemma RefFlat_iter_as_seq flat r : RefFlat c flat r ->
  exists es', RefFlat c2 flat (fst (fst r), snd (fst r), es').
Proof.
  assert (RS2 : forall f d rest, ref_step c2 f d rest = ref_step c f d rest /\ shown c2 f = shown c f).
  { destruct IS as (_ & _ & _ & EL & PH & _). intros. unfold ref_step, shown. rewrite EL, PH. auto. }
  induction 1 as [|s d rest F|f d rest flat es1 frs lf es2 HU _ [es' IH]] using RefFlat_step_ind;
    cbn [fst snd] in *.
  - eexists; constructor.
  - eexists; apply RF_leaf, F.
  - destruct (RS2 f d rest) as [R2 S2]. rewrite <- R2 in HU, IH. rewrite <- S2.
    destruct (Unw_iter_as_seq _ _ _ _ HU) as [es1' HU2].
    eexists; eapply RefFlat_frame; eauto.
Qed.

Lemma Ref_iter_as_seq seq r : Ref c seq r -> exists es', Ref c2 seq (fst (fst r), snd (fst r), es').
Proof.
  intros [? flat es1 frs lf es2 HU HF].
  destruct (Unw_iter_as_seq _ _ _ _ HU) as [es1' HU2].
  destruct (RefFlat_iter_as_seq _ _ HF) as [es2' HF2].
  eexists. econstructor; eauto.
Qed.

End IterAsSeq.

Lemma mkcfg_plain u e a cx fl ug : plain (mkcfg u e a cx fl [] false all_guards ug).
Proof. repeat split. Qed.

(* insert inside insert, then a prune issued by the (re-depthed) next_inner; a None element in a
   sequence; an iterator that raises after two items *)
Definition ex_cfg : cfg :=
  mkcfg [(0, USeq [Some (IPy 0); None; Some (IObj 1)]); (1, UIter [IPy 2; IPy 3] true)]
        [(0, (ESeq [RItem (IPy 1); RNext], true)); (1, (ESeq [RItem (IPy 4); RNext], false));
         (2, (ESeq [], false))]
        [] [] [] [] false all_guards 100.
Definition ex_cfg2 : cfg :=
  mkcfg [(0, USeq [Some (IPy 0); None; Some (IObj 1)]); (1, USeq [Some (IPy 2); Some (IPy 3)])]
        [(0, (ESeq [RItem (IPy 1); RNext], true)); (1, (ESeq [RItem (IPy 4); RNext], false));
         (2, (ESeq [], false))]
        [] [] [] [] false all_guards 100.

Example ex_plain : plain ex_cfg.
Proof. apply mkcfg_plain. Qed.

Example ex_extract :
  extract ex_cfg (IObj 0) =
  Ok (Stack [FOut 0 true None []; FOut 1 false None []; FOut 4 true None []; FOut 2 false None []]
            LNone [EIter 1]).
Proof. vm_compute. reflexivity. Qed.

Example ex_not_out_of_fuel : extract ex_cfg (IObj 0) <> OutOfFuel.
Proof. rewrite ex_extract. discriminate. Qed.

Example ex_ref_run :
  ref_run default_fuel ex_cfg [(s_of (IObj 0), 0)] =
  Some ([(0, true); (1, false); (4, true); (2, false)], [], [EIter 1]).
Proof. vm_compute. reflexivity. Qed.

(* C10_prune_exact / C10_replace / C10_insert: frame 2 (depth 1, PRUNE) before its callee at
   depth 2 and an outward entry at depth 0 *)
Example ex_prune_state :
  let rest := [(QFr 3 None, 2); (QFr 9 None, 0)] in
  nopy rest /\ elab ex_cfg 2 = ESeq [] /\
  callees 1 rest = [(QFr 3 None, 2)] /\ survivors 1 rest = [(QFr 9 None, 0)].
Proof.
  repeat split. intros f d [H|[H|[]]]; discriminate.
Qed.

Example ex_insert_state :
  let rest := [(QFr 2 None, 2); (QFr 3 None, 2)] in
  nopy rest /\ elab ex_cfg 0 = ESeq ([RItem (IPy 1)] ++ [RNext]) /\
  is_next (next_of_s (map er_t rest)) RNext = true /\
  redepth_s 1 (map er_t rest) = [(SFrame 2, 1); (SFrame 3, 2)].
Proof.
  repeat split. intros f d [H|[H|[]]]; discriminate.
Qed.

Example ex_replace_state :
  let c := mkcfg [] [(0, (ESeq [RItem (IObj 7)], true))] [] [] [] [] false all_guards 100 in
  let rest := [(QFr 2 None, 2); (QFr 3 None, 0)] in
  plain c /\ nopy rest /\ elab c 0 = ESeq [RItem (IObj 7)] /\
  ends_next (next_of_s (map er_t rest)) [RItem (IObj 7)] = false.
Proof.
  repeat split. intros f d [H|[H|[]]]; discriminate.
Qed.

Example ex_iter_as_seq : plain ex_cfg2 /\ iter_as_seq ex_cfg ex_cfg2 1 [IPy 2; IPy 3].
Proof.
  split; [apply mkcfg_plain|]. split; [exists true; reflexivity|].
  split; [exists [Some (IPy 2); Some (IPy 3)]; split; reflexivity|]. repeat split.
  intros o' NE. destruct o' as [|[|o']]; try reflexivity. congruence.
Qed.
(* the same iterator against a sequence with None entries in between *)
Definition ex_cfg3 : cfg :=
  mkcfg [(0, USeq [Some (IPy 0); None; Some (IObj 1)]); (1, USeq [None; Some (IPy 2); None; Some (IPy 3); None])]
        [(0, (ESeq [RItem (IPy 1); RNext], true)); (1, (ESeq [RItem (IPy 4); RNext], false));
         (2, (ESeq [], false))]
        [] [] [] [] false all_guards 100.
Example ex_iter_as_seq_none : plain ex_cfg3 /\ iter_as_seq ex_cfg ex_cfg3 1 [IPy 2; IPy 3].
Proof.
  split; [apply mkcfg_plain|]. split; [exists true; reflexivity|].
  split; [exists [None; Some (IPy 2); None; Some (IPy 3); None]; split; reflexivity|]. repeat split.
  intros o' NE. destruct o' as [|[|o']]; try reflexivity. congruence.
Qed.

Example ex_all_none :
  let c := mkcfg [(0, USeq [Some (IPy 0); Some (IObj 1)]); (1, UOne (IPy 1))] [] [] [] [] [] false all_guards 100 in
  plain c /\ (forall f, elab c f = ENone) /\
  extract c (IObj 0) = Ok (Stack [FOut 0 true None []; FOut 1 true None []] LNone []).
Proof. repeat split. Qed.

(* the guard: the infinite chain 0 -> 1 -> 2 -> ... *)
Definition chain_cfg : cfg :=
  {| unwrap := fun o => UOne (IObj (S o)); elab := fun _ => ENone; prehide := fun _ => false;
     attr := fun _ => default_attr; ctxs := fun _ => CtxOk []; fill := fun _ => FillOk [];
     fault := fun _ => false; with_ctx := false; grd := all_guards;
     uguard := SrcFacts.unwrap_guard |}.

Example ex_guard :
  extract chain_cfg (IObj 0)
  = Ok (Stack [] (LOne (QObj SrcFacts.unwrap_guard)) [ELoop (QObj SrcFacts.unwrap_guard)]).
Proof.
  unfold extract, extract_t. apply (guard_run chain_cfg (fun k => k)); try reflexivity; [discriminate|].
  apply Nat.leb_le. reflexivity.
Qed.
