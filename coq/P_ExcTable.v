(* P_ExcTable.v — stackscope's exception-table parser inverts CPython's writer. *)
From Coq Require Import NArith Lia.
Require Import Base M_Bytecode M_ExcTable.
Open Scope N_scope.

(* The parser reads bits 0-5 of a byte as a digit and bit 6 as the continuation flag; the
   start-of-entry marker (bit 7) is never looked at. *)
Lemma pv_go_marker acc b m r : pv_go acc ((b + 128 * m) :: r) = pv_go acc (b :: r).
Proof.
  cbn [pv_go]. replace (b + 128 * m) with (b + m * 2 * 64) by lia.
  rewrite N.mod_add, N.div_add, N.mod_add by discriminate. reflexivity.
Qed.

(* With v / (b * 64) accumulated, the next base-64 digit of v brings the accumulator to v / b. *)
Lemma digit_cont v b r : b <> 0 ->
  pv_go (v / (b * 64)) (((v / b) mod 64 + 64) :: r) = pv_go (v / b) r.
Proof.
  intros Hb. cbn [pv_go].
  rewrite (N.mod_add _ 1 64), (N.div_add _ 1 64), N.mod_mod, N.div_small
    by (discriminate || now apply N.mod_lt).
  rewrite <- N.div_div, (N.mul_comm _ 64), <- N.div_mod' by easy. reflexivity.
Qed.

Lemma digit_last v r : pv_go (v / 64) (v mod 64 :: r) = Some (v, r).
Proof.
  cbn [pv_go]. rewrite N.mod_mod, N.div_small by (discriminate || now apply N.mod_lt).
  rewrite N.mul_comm, <- N.div_mod'. reflexivity.
Qed.

(* 1073741824 = 64^5: the writer emits at most five base-64 digits *)
Lemma parse_enc_varint v m rest : v < 1073741824 ->
  parse_varint (enc_varint v (128 * m) ++ rest) = Some (v, rest).
Proof.
  intros Hv. unfold parse_varint, enc_varint.
  destruct (16777216 <=? v) eqn:E4; [|destruct (262144 <=? v) eqn:E3; [|destruct (4096 <=? v) eqn:E2;
    [|destruct (64 <=? v) eqn:E1]]]; cbn [app]; rewrite pv_go_marker.
  (* the accumulator starts at 0 = v / 64^n, n the number of digits written *)
  1: rewrite <- (N.mod_small (v / 16777216) 64), <- (N.div_small v _ Hv)
       by now apply N.div_lt_upper_bound.
  2: apply N.leb_gt in E4; rewrite <- (N.div_small v _ E4).
  3: apply N.leb_gt in E3; rewrite <- (N.div_small v _ E3).
  4: apply N.leb_gt in E2; rewrite <- (N.div_small v _ E2).
  5: apply N.leb_gt in E1; rewrite <- (N.div_small v _ E1).
  all: rewrite ?(digit_cont v 16777216), ?(digit_cont v 262144), ?(digit_cont v 4096),
         ?(digit_cont v 64) by discriminate; apply digit_last.
Qed.

Lemma enc_varint_nonempty v msb : enc_varint v msb <> [].
Proof.
  unfold enc_varint. do 4 (destruct (_ <=? v); [discriminate|]). discriminate.
Qed.

Lemma depth_lasti d (l : bool) :
  (d * 2 + (if l then 1 else 0)) / 2 = d /\ ((d * 2 + (if l then 1 else 0)) mod 2 =? 1) = l.
Proof.
  destruct l; rewrite N.div_add_l, (N.add_comm (d * 2)), N.mod_add by discriminate;
    split; trivial; apply N.add_0_r.
Qed.

Lemma parse_table_enc fuel es : Forall ok_ent es -> (length es < fuel)%nat ->
  parse_table fuel (enc_table es) = map ent_of_raw es.
Proof.
  intros Hok. revert fuel. induction Hok as [|e es (Hs & Hz & Ht & Hd) _ IH]; intros [|fuel] Hlen;
    try reflexivity; cbn [length] in Hlen; [lia|].
  unfold enc_table. cbn [flat_map parse_table]. unfold enc_entry. rewrite <- !app_assoc.
  rewrite (parse_enc_varint _ 1), !(parse_enc_varint _ 0); [|destruct (e_lasti e); lia|assumption..].
  cbn [map]. rewrite IH by lia. unfold mk_hent, ent_of_raw.
  destruct (depth_lasti (e_depth e) (e_lasti e)) as [-> ->]. reflexivity.
Qed.

Lemma enc_varint_len v msb : (1 <= length (enc_varint v msb))%nat.
Proof. pose proof (enc_varint_nonempty v msb). destruct (enc_varint v msb); [easy|cbn; lia]. Qed.

(* every encoded entry is at least 4 bytes, so the fuel of parse_exception_table suffices *)
Lemma enc_entry_len e : (4 <= length (enc_entry e))%nat.
Proof.
  unfold enc_entry. rewrite !app_length.
  pose proof (enc_varint_len (e_start e) 128). pose proof (enc_varint_len (e_size e) 0).
  pose proof (enc_varint_len (e_target e) 0).
  pose proof (enc_varint_len (e_depth e * 2 + (if e_lasti e then 1 else 0)) 0). lia.
Qed.

Lemma enc_table_len es : (4 * length es <= length (enc_table es))%nat.
Proof.
  induction es as [|e es IH]; [reflexivity|]. unfold enc_table in *. cbn [flat_map length].
  rewrite app_length. pose proof (enc_entry_len e). lia.
Qed.

(* non-vacuity: multi-byte values in every field *)
Example roundtrip_example :
  let es := [ {| e_start := 2; e_size := 7; e_target := 144; e_depth := 0; e_lasti := true |};
              {| e_start := 70; e_size := 4000; e_target := 4100; e_depth := 40; e_lasti := false |} ] in
  Forall ok_ent es /\ parse_exception_table (enc_table es) = map ent_of_raw es /\ length (enc_table es) = 14%nat.
Proof. cbn zeta. split; [repeat constructor|]. split; vm_compute; reflexivity. Qed.
