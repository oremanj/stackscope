(* P_Ref.v — property C20.  Soundness of the referents-mode (fallback) analysis on checked code
   objects: an ordered over-approximation of the ground truth (ref_ok_sound).  Then the two
   other parts of the property: contexts_active_in_frame falls back instead of raising (the
   caf_ lemmas), and set_trickery_enabled is a register whose checks remember (the tr_ lemmas). *)
Require Import Base M_Bytecode M_Analysis M_WithMachine M_Cert P_Cert.

Inductive Subseq {A} : list A -> list A -> Prop :=
  | sub_nil l : Subseq [] l
  | sub_take x a b : Subseq a b -> Subseq (x :: a) (x :: b)
  | sub_skip x a b : Subseq a b -> Subseq a (x :: b).

Lemma subseqb_Subseq a b : subseqb a b = true -> Subseq a b.
Proof.
  revert a; induction b as [|y b IH]; intros [|x a] H; cbn in H; try discriminate; try (apply sub_nil).
  destruct (x =? y) eqn:E.
  - apply Nat.eqb_eq in E. subst. constructor. auto.
  - constructor. auto.
Qed.

Lemma nodupb_NoDup l : nodupb l = true -> NoDup l.
Proof.
  induction l as [|x l IH]; cbn; intros H; constructor; apply andb_true_iff in H as [H1 H2]; auto.
  apply negb_true_iff in H1. apply mem_nat_false. exact H1.
Qed.

Lemma Subseq_map {A B} (k : A -> B) a b : Subseq a b -> Subseq (map k a) (map k b).
Proof. induction 1; cbn [map]; constructor; assumption. Qed.

(* what property C20 demands of the referents-mode answer [R] for ground truth [tr] *)
Definition ref_sound {I} (tr : list (tent I)) (R : list (refv I)) : Prop :=
  let N := filter (fun x => negb (r_exiting x)) R in
  (* every truly active manager, in order, with the correct obj and is_async *)
  Subseq (map (fun e => (Some (t_inst e), t_async e)) (filter is_active tr))
         (map (fun x => (r_obj x, r_async x)) N)
  (* every entry is a manager of this frame's truth (so an entry beyond the active ones can only
     be one this frame is currently entering or exiting), each at most once *)
  /\ (forall x, In x N -> exists e, In e tr /\ t_site e = r_site x
                                   /\ r_obj x = Some (t_inst e) /\ r_async x = t_async e)
  /\ NoDup (map r_site N) /\ NoDup (map t_site tr)
  (* an is_exiting entry exactly when an exit call is in progress; it comes last, once, with
     that manager's is_async *)
  /\ ((exists e, In e tr /\ t_phase e = Exiting) <-> (exists x, In x R /\ r_exiting x = true))
  /\ (forall x, In x R -> r_exiting x = true ->
        R = N ++ [x] /\ exists e, In e tr /\ t_phase e = Exiting /\ r_async x = t_async e).

Lemma exits_re {I J} (g : nat -> I -> J) (st : list (val I)) :
  exits_on_stack (map (vre g) st) = map (fun x => (fst x, g (fst x) (snd x))) (exits_on_stack st).
Proof.
  unfold exits_on_stack. rewrite <- map_rev. induction (rev st) as [|v l IH]; [reflexivity|].
  cbn [map flat_map]. rewrite IH, map_app. f_equal. destruct v; reflexivity.
Qed.

Lemma exiting_In {I} (tr : list (tent I)) e :
  In e (filter is_exiting_ph tr) <-> In e tr /\ t_phase e = Exiting.
Proof. rewrite filter_In. unfold is_exiting_ph. destruct (t_phase e); cbn; intuition discriminate. Qed.

Lemma ref_ok_spec v c t r l (st : list (val unit)) (tr : list (tent unit)) :
  ref_ok v c t (r, l, st, tr) = true ->
  let N := map fst (exits_on_stack st) in
  Subseq (map t_site (filter is_active tr)) N /\ incl N (map t_site tr)
  /\ NoDup N /\ NoDup (map t_site tr)
  /\ (forall e, In e tr -> t_async e = site_async c (t_site e))
  /\ match exiting v c t l, filter is_exiting_ph tr with
     | ESome asy _, [e] => asy = t_async e
     | ENone, [] => True
     | _, _ => False
     end.
Proof.
  cbn [ref_ok]. intros Hk.
  apply andb_true_iff in Hk as [Hk H6]. apply andb_true_iff in Hk as [Hk H5].
  apply andb_true_iff in Hk as [Hk H4]. apply andb_true_iff in Hk as [Hk H3].
  apply andb_true_iff in Hk as [H1 H2]. rewrite forallb_forall in H2, H5.
  split; [exact (subseqb_Subseq _ _ H1)|]. split; [intros a Ha; apply mem_nat_In, H2, Ha|].
  split; [exact (nodupb_NoDup _ H3)|]. split; [exact (nodupb_NoDup _ H4)|].
  split; [intros e He; apply Bool.eqb_prop, H5, He|].
  destruct (exiting v c t l); destruct (filter is_exiting_ph tr) as [|e [|]]; try discriminate; trivial.
  apply Bool.eqb_prop, H6.
Qed.

Lemma filter_nonexiting {I} (Nn tl : list (refv I)) :
  (forall x, In x Nn -> r_exiting x = false) -> (forall y, In y tl -> r_exiting y = true) ->
  filter (fun x => negb (r_exiting x)) (Nn ++ tl) = Nn.
Proof.
  intros HN Htl. rewrite filter_app. replace (filter _ tl) with (@nil (refv I)).
  - rewrite app_nil_r. induction Nn as [|x Nn IH]; [reflexivity|]. cbn. rewrite (HN x (or_introl eq_refl)).
    cbn. f_equal. apply IH. intros; apply HN; right; assumption.
  - symmetry. induction tl as [|y tl IH]; [reflexivity|]. cbn. rewrite (Htl y (or_introl eq_refl)). cbn.
    apply IH. intros; apply Htl; right; assumption.
Qed.

Lemma ref_sound_intro {I} v c t l (tr : list (tent I)) (Nn : list (refv I)) :
  (forall x, In x Nn -> r_exiting x = false) ->
  Subseq (map (fun e => (Some (t_inst e), t_async e)) (filter is_active tr))
         (map (fun x => (r_obj x, r_async x)) Nn) ->
  (forall x, In x Nn -> exists e, In e tr /\ t_site e = r_site x
                                  /\ r_obj x = Some (t_inst e) /\ r_async x = t_async e) ->
  NoDup (map r_site Nn) -> NoDup (map t_site tr) ->
  match exiting v c t l, filter is_exiting_ph tr with
  | ESome asy _, [e] => asy = t_async e
  | ENone, [] => True
  | _, _ => False
  end ->
  ref_sound tr (Nn ++ match exiting v c t l with
                      | ESome asy _ => [{| r_site := 0; r_obj := None; r_async := asy; r_exiting := true |}]
                      | _ => []
                      end).
Proof.
  intros HNn C1 C2 C3 C4 Hex. unfold ref_sound.
  assert (Hno : forall x, In x Nn -> r_exiting x = true -> False)
    by (intros x Hx E; rewrite (HNn x Hx) in E; discriminate).
  destruct (exiting v c t l) as [|asy h|]; destruct (filter is_exiting_ph tr) as [|e0 [|]] eqn:Ef;
    try contradiction.
  - rewrite filter_nonexiting by (assumption || intros y []). rewrite app_nil_r.
    repeat split; trivial.
    + intros (e & He). apply exiting_In in He. rewrite Ef in He. destruct He.
    + intros (x & Hx & E). destruct (Hno x Hx E).
    + destruct (Hno x H H0).
    + destruct (Hno x H H0).
  - assert (He0 : In e0 tr /\ t_phase e0 = Exiting) by (apply exiting_In; rewrite Ef; left; reflexivity).
    rewrite filter_nonexiting by (assumption || intros y [<-|[]]; reflexivity).
    split; [exact C1|]. split; [exact C2|]. split; [exact C3|]. split; [exact C4|]. split; [split|].
    + intros _. eexists. split; [apply in_or_app; right; left; reflexivity|reflexivity].
    + intros _. exists e0. exact He0.
    + intros x Hx E. apply in_app_or in Hx as [Hx|[<-|[]]]; [destruct (Hno x Hx E)|].
      split; [reflexivity|]. exists e0. destruct He0. repeat split; assumption.
Qed.

(* The checker's verdict on a certified observation holds of every relabelling of it: the
   instance at a site is then a function of the site, which is all the argument needs. *)
Theorem ref_ok_sound {I} v c t l (g : nat -> unit -> I) est etr :
  ref_ok v c t (false, l, est, etr) = true ->
  ref_sound (map (tre g) etr) (referents v c t l (map (vre g) est)).
Proof.
  intros Hk. destruct (ref_ok_spec _ _ _ _ _ _ _ Hk) as (Hsub & Hin & HN & Htr & Hasync & Hex).
  set (mk := fun a => {| r_site := a; r_obj := Some (g a tt); r_async := site_async c a; r_exiting := false |}).
  (* the answer has one entry [mk a] per site a of N, and a truth entry agrees with that of its site *)
  assert (Htre : forall e, In e etr -> r_obj (mk (t_site e)) = Some (t_inst (tre g e))
                                      /\ r_async (mk (t_site e)) = t_async (tre g e)).
  { intros [a [] y ph] He. apply Hasync in He. cbn in He |- *. rewrite He. split; reflexivity. }
  unfold referents. rewrite exits_re, map_map.
  rewrite (map_ext _ (fun x => mk (fst x))) by (intros [a []]; reflexivity). rewrite <- (map_map fst mk).
  set (N := map fst (exits_on_stack est)) in *. apply ref_sound_intro.
  - intros x Hx. apply in_map_iff in Hx as (a & <- & _). reflexivity.
  - rewrite (active_re g), !map_map.
    rewrite (map_ext_in _ (fun e => (r_obj (mk (t_site e)), r_async (mk (t_site e)))))
      by (intros e He; apply filter_In in He as [He _]; destruct (Htre e He) as [-> ->]; reflexivity).
    rewrite <- (map_map t_site (fun a => (r_obj (mk a), r_async (mk a)))). apply Subseq_map, Hsub.
  - intros x Hx. apply in_map_iff in Hx as (a & <- & Ha).
    apply Hin, in_map_iff in Ha as (e & <- & He). exists (tre g e).
    split; [exact (in_map _ _ _ He)|]. split; [reflexivity|exact (Htre e He)].
  - rewrite map_map, map_id. exact HN.
  - rewrite map_map. exact Htr.
  - rewrite (filter_map_comm (tre g)). change (fun x => is_exiting_ph (tre g x)) with (@is_exiting_ph unit).
    destruct (exiting v c t l); destruct (filter is_exiting_ph etr) as [|e0 [|]]; trivial.
Qed.
(* the guard around the trickery branch ([guarded] = true): a failure there only warns *)
Lemma caf_never_raises {I} v enabled c t running lasti (st : list (val I)) :
  contexts_active v true enabled c t running lasti st <> CafRaise.
Proof.
  unfold contexts_active. destruct enabled; [|discriminate].
  destruct (trickery v c t running lasti st); try discriminate.
  destruct (with_info v c t); [|discriminate]. destruct (blocks t lasti); [|discriminate].
  destruct (objs_of _ _ _); discriminate.
Qed.

Lemma caf_failure_falls_back {I} v c t running lasti (st : list (val I)) :
  trickery v c t running lasti st = TFail ->
  contexts_active v true true c t running lasti st = CafRef (referents v c t lasti st) true.
Proof. unfold contexts_active. intros ->. reflexivity. Qed.

Lemma caf_disabled_is_referents {I} v g c t running lasti (st : list (val I)) :
  contexts_active v g false c t running lasti st = CafRef (referents v c t lasti st) false.
Proof. reflexivity. Qed.

Lemma tr_checks_cached detect b ops :
  Forall (fun o => o = TCheck) ops ->
  tr_run detect (Some b) ops = map (fun _ => Some b) ops
  /\ tr_warns detect (Some b) ops = map (fun _ => false) ops.
Proof.
  induction 1 as [|o ops -> _ [IH1 IH2]]; [split; reflexivity|].
  cbn [tr_run tr_warns tr_warn tr_step fst map]. rewrite IH1, IH2. split; reflexivity.
Qed.

Lemma tr_checks_fresh detect ops :
  Forall (fun o => o = TCheck) ops -> tr_run detect None ops = map (fun _ => Some detect) ops.
Proof.
  destruct 1 as [|o ops -> H]; [reflexivity|]. cbn [tr_run tr_step map]. f_equal.
  apply tr_checks_cached, H.
Qed.

Fixpoint last_set (init : option bool) (ops : list tr_op) : option bool :=
  match ops with
  | [] => init
  | TSet v :: r => last_set v r
  | TCheck :: r => last_set (match init with Some b => Some b | None => None end) r
  end.

Lemma tr_run_app detect s a b :
  tr_run detect s (a ++ b) =
  tr_run detect s a ++ tr_run detect (fold_left (fun st o => fst (tr_step detect st o)) a s) b.
Proof.
  revert s; induction a as [|o a IH]; intros s; [reflexivity|]. cbn [app tr_run fold_left].
  destruct (tr_step detect s o) as [s' out] eqn:E. cbn [fst]. rewrite IH. reflexivity.
Qed.

Lemma tr_read_sees_last detect s pre :
  exists st, fold_left (fun st o => fst (tr_step detect st o)) pre s = st /\
  tr_run detect st [TCheck] = [Some (match st with Some b => b | None => detect end)].
Proof. eexists; split; [reflexivity|]. cbn. destruct (fold_left _ pre s); reflexivity. Qed.
