(* P_Glue.v — lemmas and proofs about M_Glue (property C17).
   A step of a thread and a step of the environment are each brought once into explicit form
   over the fields of the state before: [tstep_cases], and its coarser view [body_cases] (a visit,
   or a step that [stays]: it keeps what was popped and logs at most the call it held);
   [env_cases].  All but a thread's snapshot and cache write have the shape [frame_state]
   ([call_shape], [visit_eq]); [irs_view] says what the sys.modules operations inside do.  The
   invariants are proved over these cases and carried to the reachable states by [reachable_ind] /
   [run_ind]: at-most-once for module glue (IM) and built-in functions (IB) are two instances of
   one token invariant (Section Token); PM and NB speak of the calls that are logged or held
   ([live]); GI and GP describe the locked region, the scan in progress and the cache; the two
   timeliness theorems share one argument about a window without removals (Section Timely). *)
Require Import Base M_Glue.
From SS.gen Require Import SrcFacts.

Set Implicit Arguments.

Lemma m_get_In M a b : m_get M a = Some b -> In (a, b) M.
Proof.
  induction M as [|[k v] r IH]; simpl; [discriminate|].
  destruct (Nat.eqb_spec k a); [intros H; inversion H; subst; left; reflexivity|intros H; right; auto].
Qed.

Lemma In_m_get M a b : NoDup (map fst M) -> In (a, b) M -> m_get M a = Some b.
Proof.
  induction M as [|[k v] r IH]; simpl; [tauto|].
  intros ND [H|H].
  - inversion H; subst. rewrite Nat.eqb_refl. reflexivity.
  - inversion ND; subst. destruct (Nat.eqb_spec k a).
    + subst k. exfalso. apply H2. change a with (fst (a, b)). apply in_map. exact H.
    + apply IH; assumption.
Qed.

Lemma m_get_set M n o a : m_get (m_set M n o) a = if n =? a then Some o else m_get M a.
Proof.
  induction M as [|[k v] r IH]; simpl; [reflexivity|].
  destruct (Nat.eqb_spec k n) as [->|NE]; simpl.
  - destruct (n =? a); reflexivity.
  - rewrite IH. destruct (Nat.eqb_spec k a), (Nat.eqb_spec n a); congruence.
Qed.

Lemma fst_m_set M n o : map fst (m_set M n o) = if mem_nat n (map fst M) then map fst M else map fst M ++ [n].
Proof.
  induction M as [|[k v] r IH]; simpl; [reflexivity|].
  unfold mem_nat in *. simpl. destruct (Nat.eqb_spec k n).
  - subst. rewrite Nat.eqb_refl. simpl. reflexivity.
  - simpl. rewrite IH. destruct (Nat.eqb_spec n k); [congruence|]. simpl.
    destruct (existsb (Nat.eqb n) (map fst r)); reflexivity.
Qed.

Lemma NoDup_snoc (l : list nat) n : NoDup l -> ~ In n l -> NoDup (l ++ [n]).
Proof. intros ND NI. apply (NoDup_Add (Add_app n l [])). rewrite app_nil_r. auto. Qed.

Lemma NoDup_m_set M n o : NoDup (map fst M) -> NoDup (map fst (m_set M n o)).
Proof.
  intros ND. rewrite fst_m_set. destruct (mem_nat n (map fst M)) eqn:Q; [exact ND|].
  apply NoDup_snoc; [exact ND|apply mem_nat_false; exact Q].
Qed.

Lemma length_m_set M n o : length M <= length (m_set M n o).
Proof.
  induction M as [|[k v] r IH]; simpl; [lia|]. destruct (k =? n); simpl; lia.
Qed.

Lemma m_get_app_other p n f a : a <> n -> m_get (p ++ [(n, f)]) a = m_get p a.
Proof.
  intros NE. induction p as [|[k v] r IH]; simpl.
  - destruct (Nat.eqb_spec n a); [congruence|reflexivity].
  - destruct (k =? a); auto.
Qed.

Lemma m_get_del p a n : m_get (m_del p a) n = if a =? n then None else m_get p n.
Proof.
  induction p as [|[k v] r IH]; simpl; [destruct (a =? n); reflexivity|].
  destruct (Nat.eqb_spec k a) as [->|NE]; simpl; rewrite IH; [destruct (a =? n); reflexivity|].
  destruct (Nat.eqb_spec k n), (Nat.eqb_spec a n); congruence.
Qed.

Lemma m_get_del_none p a n : m_get p n = None -> m_get (m_del p a) n = None.
Proof. intros H. rewrite m_get_del, H. destruct (a =? n); reflexivity. Qed.

Lemma In_map_m_del A (g : nat * nat -> A) M n a : In a (map g (m_del M n)) -> In a (map g M).
Proof.
  induction M as [|[k v] r IH]; simpl; [tauto|].
  destruct (k =? n); simpl; [right; auto|intros [H|H]; [left; exact H|right; auto]].
Qed.

Lemma NoDup_map_m_del A (g : nat * nat -> A) M n : NoDup (map g M) -> NoDup (map g (m_del M n)).
Proof.
  induction M as [|[k v] r IH]; simpl; [auto|].
  intros ND. inversion ND; subst. destruct (k =? n); [auto|].
  simpl. constructor; [|auto]. intros H. apply H1. eapply In_map_m_del. exact H.
Qed.

Lemma m_del_value_gone p a f : m_get p a = Some f -> NoDup (map snd p) -> ~ In f (map snd (m_del p a)).
Proof.
  induction p as [|[k v] r IH]; simpl; [discriminate|].
  intros G ND. inversion ND; subst. destruct (Nat.eqb_spec k a).
  - inversion G; subst. intros H. apply H1. eapply In_map_m_del. exact H.
  - simpl. intros [H|H].
    + subst v. apply H1. change f with (snd (a, f)). apply in_map. apply m_get_In. exact G.
    + exact (IH G H2 H).
Qed.

(* every coarse run is a run of micro-steps: the theorems about [run] cover what the
   correspondence evaluates *)
Lemma to_stop_is_run c w fuel t s : exists ls, to_stop c w fuel t s = run c w ls s.
Proof.
  revert s; induction fuel as [|k IH]; intros s; simpl.
  - exists []; reflexivity.
  - destruct (is_stop s (thr s t)).
    + exists []; reflexivity.
    + destruct (IH (tstep c w t s)) as [ls E]. exists (LThr t :: ls). simpl. exact E.
Qed.

Lemma to_done_is_run c w fuel t s : exists ls, to_done c w fuel t s = run c w ls s.
Proof.
  revert s; induction fuel as [|k IH]; intros s; simpl.
  - exists []; reflexivity.
  - destruct (is_done (thr s t)).
    + exists []; reflexivity.
    + destruct (IH (tstep c w t s)) as [ls E]. exists (LThr t :: ls). simpl. exact E.
Qed.

Lemma run_app c w a b s : run c w (a ++ b) s = run c w b (run c w a s).
Proof. unfold run. apply fold_left_app. Qed.

Lemma cstep_is_run c w l s : exists ls, fst (cstep c w l s) = run c w ls s.
Proof.
  destruct l as [e|t|t|t]; unfold cstep; cbn [fst].
  - exists [LEnv e]; reflexivity.
  - destruct (to_stop_is_run c w FUEL t (tstep c w t s)) as [ls E].
    exists (LThr t :: ls). cbn [run fold_left step]. exact E.
  - destruct (to_done_is_run c w FUEL t (tstep c w t s)) as [ls E].
    exists (LThr t :: ls). cbn [run fold_left step]. exact E.
  - exists []; reflexivity.
Qed.

Lemma crun_is_run c w ls s : exists ms, fst (crun c w ls s) = run c w ms s.
Proof.
  revert s; induction ls as [|l r IH]; intros s; cbn [crun].
  - exists []; reflexivity.
  - destruct (cstep_is_run c w l s) as [m1 E1].
    destruct (cstep c w l s) as [s1 a] eqn:C. cbn [fst] in E1.
    destruct (IH s1) as [m2 E2].
    destruct (crun c w r s1) as [s2 b] eqn:R. cbn [fst] in *.
    exists (m1 ++ m2). rewrite run_app, <- E1. exact E2.
Qed.

Definition reachable (c : cfg) (w : world) (scanned : bool) (s : st) : Prop :=
  exists ls, s = run c w ls (init w scanned).

Lemma reachable_step c w scanned s l : reachable c w scanned s -> reachable c w scanned (step c w l s).
Proof. intros [ls E]. exists (ls ++ [l]). rewrite run_app, <- E. reflexivity. Qed.

Lemma run_ind c w scanned (P : st -> Prop) :
  (forall s l, reachable c w scanned s -> P s -> P (step c w l s)) ->
  forall ls s1, reachable c w scanned s1 -> P s1 -> P (run c w ls s1).
Proof.
  intros HS. induction ls as [|l r IH]; intros s1 R H; [exact H|].
  apply IH; [apply reachable_step; exact R|apply HS; assumption].
Qed.

Lemma reachable_ind c w scanned (P : st -> Prop) :
  P (init w scanned) ->
  (forall s l, reachable c w scanned s -> P s -> P (step c w l s)) ->
  forall s, reachable c w scanned s -> P s.
Proof.
  intros H0 HS s [ls ->]. apply run_ind with (scanned := scanned); auto. exists []; reflexivity.
Qed.

Lemma model_run_reachable k : reachable src_cfg (gc_world k) (gc_scanned k) (fst (model_run k)).
Proof. unfold model_run, reachable. apply crun_is_run. Qed.

Definition upd (f : nat -> pc) (t : nat) (p : pc) : nat -> pc := fun t' => if t' =? t then p else f t'.

Lemma upd_same f t p : upd f t p t = p.
Proof. unfold upd. rewrite Nat.eqb_refl. reflexivity. Qed.
Lemma upd_other f t p t' : t' <> t -> upd f t p t' = f t'.
Proof. unfold upd. intros H. apply Nat.eqb_neq in H. rewrite H. reflexivity. Qed.
Lemma upd_id f t t' : f t' = upd f t (f t) t'.
Proof. unfold upd. destruct (Nat.eqb_spec t' t); [subst|]; reflexivity. Qed.

(* what held of a thread after t has moved to a pc of which it does not hold, held of it before *)
Lemma upd_false (P : pc -> bool) f th t p' :
  (forall t', th t' = upd f t p' t') -> P p' = false ->
  forall t', P (th t') = true -> P (f t') = true /\ t' <> t.
Proof.
  intros TH NP t' X. rewrite TH in X. unfold upd in X. destruct (Nat.eqb_spec t' t); [congruence|auto].
Qed.

Definition in_region (p : pc) : bool :=
  match p with PLocked | PScan _ _ | PCall _ _ _ _ _ _ => true | _ => false end.
Definition is_pcall (p : pc) : bool := match p with PCall _ _ _ _ _ _ => true | _ => false end.

Definition unlock (l : option nat) (t : nat) : option nat :=
  match l with Some t' => if t' =? t then None else l | None => l end.

Lemma release_eq s t : release s t = set_lock s (unlock (lock s) t).
Proof.
  unfold release, unlock. destruct s as [? ? ? ? l ? ? ? ? ? ? ? ? ? ?]; simpl.
  destruct l as [t'|]; [destruct (t' =? t)|]; reflexivity.
Qed.

(* sys.modules operations read and write only the module table and the removal bookkeeping
   ([core]); what they do to a state is what they do to any state with the same core *)
Definition with_mods (s : st) (M : list (nat * nat)) (a b : bool) (r : nat) : st :=
  mkst M (popped s) (pend s) (cache s) (lock s) (thr s) (log s) (nreg s)
       a b r (g_started s) (g_late s) (g_snap_cache s) (g_snap_scan s).
Definition core (s : st) := (mods s, g_since_cache s, g_since_snap s, g_nrem s).

Lemma irs_transport l s s' : core s' = core s ->
  apply_irs l s' = with_mods s' (mods (apply_irs l s)) (g_since_cache (apply_irs l s))
                             (g_since_snap (apply_irs l s)) (g_nrem (apply_irs l s)).
Proof.
  revert s s'; induction l as [|i l IH]; intros s s' H.
  - destruct s'. injection H as -> -> -> ->. reflexivity.
  - change (apply_irs (i :: l) s') with (apply_irs l (apply_ir i s')).
    change (apply_irs (i :: l) s) with (apply_irs l (apply_ir i s)).
    rewrite (IH (apply_ir i s) (apply_ir i s')).
    + destruct i as [n o|n]; simpl; [|destruct (m_get (mods s') n)]; reflexivity.
    + injection H as M A B R. unfold core.
      destruct i as [n o|n]; simpl; rewrite M, ?A, ?B, ?R; [reflexivity|].
      destruct (m_get (mods s) n); simpl; congruence.
Qed.

Lemma apply_irs_eta l s :
  apply_irs l s = with_mods s (mods (apply_irs l s)) (g_since_cache (apply_irs l s))
                            (g_since_snap (apply_irs l s)) (g_nrem (apply_irs l s)).
Proof. exact (@irs_transport l s s eq_refl). Qed.

Definition keeps (s s' : st) : Prop :=
  g_since_cache s' = g_since_cache s /\ g_since_snap s' = g_since_snap s
  /\ (forall a b, m_get (mods s) a = Some b -> m_get (mods s') a = Some b)
  /\ length (mods s) <= length (mods s').

Lemma keeps_refl s : keeps s s.
Proof. repeat split; auto. Qed.

Lemma keeps_trans s1 s2 s3 : keeps s1 s2 -> keeps s2 s3 -> keeps s1 s3.
Proof.
  intros (a&b&c0&d) (a'&b'&c'&d'). repeat split; try congruence; auto. lia.
Qed.

(* A batch of sys.modules operations leaves the keys distinct.  Either it only adds names or
   re-binds a name to the object it has (every binding and both flags are kept), or it removes or
   replaces something: then it raises both flags and the removal count. *)
Definition irs_spec (s s' : st) : Prop :=
  (NoDup (map fst (mods s)) -> NoDup (map fst (mods s')))
  /\ (g_nrem s' = g_nrem s /\ keeps s s'
      \/ g_nrem s < g_nrem s' /\ g_since_cache s' = true /\ g_since_snap s' = true).

Lemma ir_view i s : irs_spec s (apply_ir i s).
Proof.
  assert (INS : forall n o, (forall o', m_get (mods s) n = Some o' -> o' = o) ->
                forall a b, m_get (mods s) a = Some b -> m_get (m_set (mods s) n o) a = Some b).
  { intros n o H a b G. rewrite m_get_set. destruct (Nat.eqb_spec n a) as [->|]; [|exact G]. rewrite (H _ G). reflexivity. }
  unfold irs_spec, keeps. destruct i as [n o|n]; simpl.
  - split; [apply NoDup_m_set|].
    destruct (m_get (mods s) n) as [o'|] eqn:G; [destruct (Nat.eqb_spec o' o) as [->|NE]|]; simpl.
    + left. rewrite !orb_false_r. repeat split; auto using length_m_set. apply INS. congruence.
    + right. rewrite !orb_true_r. auto.
    + left. rewrite !orb_false_r. repeat split; auto using length_m_set. apply INS. congruence.
  - destruct (m_get (mods s) n); simpl; [split; [apply NoDup_map_m_del|right; auto]|].
    split; [auto|left; repeat split; auto].
Qed.

Lemma irs_view l s : irs_spec s (apply_irs l s).
Proof.
  revert s; induction l as [|i l IH]; intros s.
  - split; [auto|left; split; [reflexivity|apply keeps_refl]].
  - change (apply_irs (i :: l) s) with (apply_irs l (apply_ir i s)).
    destruct (ir_view i s) as [N1 V1]. destruct (IH (apply_ir i s)) as [N2 V2]. split; [auto|].
    destruct V1 as [[E1 K1]|(E1 & A1 & B1)]; destruct V2 as [[E2 K2]|(E2 & A2 & B2)].
    + left. split; [congruence|eapply keeps_trans; eassumption].
    + right. rewrite <- E1. auto.
    + right. destruct K2 as (A2 & B2 & _). split; [lia|split; congruence].
    + right. split; [lia|auto].
Qed.

Lemma irs_nrem l s : g_nrem s <= g_nrem (apply_irs l s) /\ (g_nrem (apply_irs l s) = g_nrem s -> keeps s (apply_irs l s)).
Proof. destruct (irs_view l s) as [_ [[E K]|[E _]]]; split; try lia; auto. Qed.

Lemma irs_flags l s :
  (g_since_cache (apply_irs l s) = false -> g_since_cache s = false)
  /\ (g_since_snap (apply_irs l s) = false -> g_since_snap s = false).
Proof.
  destruct (irs_view l s) as [_ [[_ (A & B & _)]|(_ & A & B)]]; rewrite A, B; [auto|split; discriminate].
Qed.

(* The shape of every step but a thread's snapshot and cache write: the operations l on
   sys.modules; the cache and both snapshots stay; the other fields are given. *)
Definition frame_state (s : st) (l : list irop) (po : list nat) (pd : list (nat * nat)) (lk : option nat)
    (th : nat -> pc) (lg : list event) (nr : nat) (gs lt : bool) : st :=
  mkst (mods (apply_irs l s)) po pd (cache s) lk th lg nr
       (g_since_cache (apply_irs l s)) (g_since_snap (apply_irs l s)) (g_nrem (apply_irs l s))
       gs lt (g_snap_cache s) (g_snap_scan s).

Definition selected (w : world) (mf bf : option nat) : option (fnspec * bool) :=
  match mf with
  | Some o => Some (match glue_of w o with Some fs => fs | None => mkfn BOk [] end, true)
  | None => match bf with Some f => Some (bfn_of w f, false) | None => None end
  end.

Definition call_pre (nm : nat) (mf bf cur : option nat) : list event :=
  match mf, bf with
  | Some o, _ => [EvCallM o nm bf]
  | None, Some f => [EvCallB f nm cur]
  | None, None => []
  end.

Definition finish (c : cfg) (t nm : nat) (mk : bool) (todo : list nat) (k : nat) (b : beh) (s1 : st) : st :=
  match b with
  | BOk => set_thr s1 t (PScan todo k)
  | BRaise => if c_guarded c then set_thr (add_log s1 (EvWarn mk nm)) t (PScan todo k) else abort t s1
  | BBase => abort t s1
  end.

Lemma call_some c w t nm mf bf cur todo k s fs mk :
  selected w mf bf = Some (fs, mk) ->
  exists ev, call_pre nm mf bf cur = [ev] /\ is_call ev = true
    /\ call c w t nm mf bf cur todo k s = finish c t nm mk todo k (fbeh fs) (apply_irs (feff fs) (add_log s ev)).
Proof.
  unfold selected, call. destruct mf as [o|]; [|destruct bf as [f|]; [|discriminate]];
    intros H; inversion H; subst; eexists; repeat split.
Qed.

Lemma call_none c w t nm mf bf cur todo k s :
  selected w mf bf = None ->
  call_pre nm mf bf cur = [] /\ call c w t nm mf bf cur todo k s = set_thr s t (PScan todo k).
Proof. unfold selected, call. destruct mf; [discriminate|destruct bf; [discriminate|]]. split; reflexivity. Qed.

Definition call_out (t nm : nat) (todo : list nat) (k : nat) (post : list event) (p' : pc) : Prop :=
  p' = PScan todo k /\ (post = [] \/ exists b, post = [EvWarn b nm]) \/ p' = PDone false /\ post = [EvRet t false].

Lemma call_out_pcall t nm todo k post p' : call_out t nm todo k post p' -> is_pcall p' = false.
Proof. intros [[-> _]|[-> _]]; reflexivity. Qed.

(* Whatever the function is: it performs some sys.modules operations, [post] is logged after
   the call event, and t goes on with its scan or leaves with the lock released. *)
Lemma call_shape c w t nm mf bf cur todo k s :
  exists l post p',
    call c w t nm mf bf cur todo k s =
      frame_state s l (popped s) (pend s) (if is_done p' then unlock (lock s) t else lock s) (upd (thr s) t p')
                  (post ++ call_pre nm mf bf cur ++ log s) (nreg s) (g_started s) (g_late s)
    /\ call_out t nm todo k post p'.
Proof.
  unfold call_out. destruct (selected w mf bf) as [[fs mk]|] eqn:S.
  - destruct (call_some c w t nm mf bf cur todo k s S) as (ev & -> & _ & ->).
    exists (feff fs). rewrite (@irs_transport (feff fs) s (add_log s ev) eq_refl).
    unfold finish, abort. rewrite !release_eq.
    destruct (fbeh fs); [|destruct (c_guarded c)|];
      [exists [], (PScan todo k)|exists [EvWarn mk nm], (PScan todo k)
      |exists [EvRet t false], (PDone false)|exists [EvRet t false], (PDone false)];
      (split; [reflexivity|eauto]).
  - destruct (call_none c w t nm mf bf cur todo k s S) as [-> ->].
    exists [], [], (PScan todo k). split; [destruct s; reflexivity|auto].
Qed.

Definition visit_mf (w : world) (s : st) (nm : nat) : option nat :=
  match m_get (mods s) nm with
  | Some o => match glue_of w o with
              | Some _ => if mem_nat o (popped s) then None else Some o
              | None => None
              end
  | None => None
  end.

Lemma visit_mf_some w s nm o : visit_mf w s nm = Some o ->
  m_get (mods s) nm = Some o /\ glue_of w o <> None /\ ~ In o (popped s).
Proof.
  unfold visit_mf. destruct (m_get (mods s) nm) as [o'|]; [|discriminate].
  destruct (glue_of w o') eqn:G; [|discriminate].
  destruct (mem_nat o' (popped s)) eqn:M; [discriminate|].
  intros H; inversion H; subst. repeat split; auto. congruence. apply mem_nat_false. exact M.
Qed.

Lemma visit_mf_none w s nm o : visit_mf w s nm = None -> m_get (mods s) nm = Some o ->
  glue_of w o = None \/ In o (popped s).
Proof.
  unfold visit_mf. intros H E. rewrite E in H.
  destruct (glue_of w o); [|left; reflexivity].
  destruct (mem_nat o (popped s)) eqn:M; [|discriminate]. right. apply mem_nat_In. exact M.
Qed.

Definition visit_pc (w : world) (s : st) (nm : nat) (todo : list nat) (k : nat) : pc :=
  if some_or (visit_mf w s nm) (m_get (pend s) nm)
  then PCall nm (visit_mf w s nm) (m_get (pend s) nm) (m_get (mods s) nm) todo k
  else PScan todo k.

Lemma visit_eq c w t nm todo k s : c_pop c = true ->
  visit c w t nm todo k s =
    frame_state s [] (match visit_mf w s nm with Some o => o :: popped s | None => popped s end)
                (m_del (pend s) nm) (lock s) (upd (thr s) t (visit_pc w s nm todo k)) (log s) (nreg s)
                (g_started s) (g_late s).
Proof. intros H. unfold visit. rewrite H. reflexivity. Qed.

(* One step of thread t.  [TcOut]: the steps outside the locked region (start, read the length,
   compare with the cache and return or go on to the slow path, find the lock taken); the thread
   map is given pointwise so that the last of these, which changes nothing, is an instance. *)
Inductive tstep_case (c : cfg) (w : world) (t : nat) (s : st) : st -> Prop :=
  | TcOut p' th post gs :
      in_region (thr s t) = false -> in_region p' = false -> (forall t', th t' = upd (thr s) t p' t') ->
      (forall l, p' = PRead l -> l = w_base w + length (mods s)) ->
      post = [] \/ post = [EvRet t true] /\ thr s t = PRead (cache s) ->
      gs = true \/ gs = g_started s /\ thr s t <> PIdle ->
      tstep_case c w t s (frame_state s [] (popped s) (pend s) (lock s) th (post ++ log s) (nreg s) gs (g_late s))
  | TcAcquire :
      thr s t = PSlow -> (c_locked c = true -> lock s = None) ->
      tstep_case c w t s
        (frame_state s [] (popped s) (pend s) (if c_locked c then Some t else lock s) (upd (thr s) t PLocked)
                     (log s) (nreg s) (g_started s) (g_late s))
  | TcSnap :
      thr s t = PLocked ->
      tstep_case c w t s
        (mkst (mods s) (popped s) (pend s) (cache s) (lock s)
              (upd (thr s) t (PScan (map fst (mods s)) (w_base w + length (mods s)))) (log s) (nreg s)
              (g_since_cache s) false (g_nrem s) (g_started s) (g_late s) (g_snap_cache s) (mods s))
  | TcWrite k :
      thr s t = PScan [] k ->
      tstep_case c w t s
        (mkst (mods s) (popped s) (pend s) k (unlock (lock s) t) (upd (thr s) t (PDone true))
              (EvRet t true :: log s) (nreg s)
              (g_since_snap s) (g_since_snap s) (g_nrem s) (g_started s) (g_late s)
              (g_snap_scan s) (g_snap_scan s))
  | TcVisit nm todo k :
      thr s t = PScan (nm :: todo) k -> tstep_case c w t s (visit c w t nm todo k s)
  | TcCall nm mf bf cur todo k l post p' :
      thr s t = PCall nm mf bf cur todo k -> call_out t nm todo k post p' ->
      tstep_case c w t s
        (frame_state s l (popped s) (pend s) (if is_done p' then unlock (lock s) t else lock s) (upd (thr s) t p')
                     (post ++ call_pre nm mf bf cur ++ log s) (nreg s) (g_started s) (g_late s)).

Lemma tstep_cases c w t s : tstep_case c w t s (tstep c w t s).
Proof.
  unfold tstep. destruct (thr s t) as [| |l| | |todo k|nm mf bf cur todo k|ok] eqn:E.
  - apply TcOut with (p' := PEnter) (post := []); rewrite ?E; auto; discriminate.
  - apply TcOut with (p' := PRead (w_base w + length (mods s))) (post := []); rewrite ?E; auto.
    + intros l H; inversion H; reflexivity.
    + right; split; [reflexivity|discriminate].
  - destruct (Nat.eqb_spec l (cache s)) as [->|NE].
    + apply (@TcOut c w t s (PDone true) (upd (thr s) t (PDone true)) [EvRet t true] (g_started s)); rewrite ?E; auto; try discriminate.
      right; split; [reflexivity|discriminate].
    + apply TcOut with (p' := PSlow) (post := []); rewrite ?E; auto; try discriminate.
      right; split; [reflexivity|discriminate].
  - generalize (@TcAcquire c w t s E). destruct (c_locked c); [destruct (lock s) eqn:L|]; intros A.
    + destruct s. apply TcOut with (p' := PSlow) (post := []); rewrite ?E; auto; try discriminate.
      * rewrite <- E. apply upd_id.
      * right; split; [reflexivity|discriminate].
    + apply A. reflexivity.
    + apply A. discriminate.
  - apply TcSnap. exact E.
  - destruct todo as [|nm todo]; [|apply TcVisit; exact E].
    rewrite release_eq. exact (@TcWrite c w t s k E).
  - destruct (call_shape c w t nm mf bf cur todo k s) as (l & post & p' & -> & PP).
    apply TcCall with (todo := todo) (k := k); assumption.
  - apply TcOut with (p' := PEnter) (post := []); rewrite ?E; auto; discriminate.
Qed.

(* the call event a thread at p will log *)
Definition pre_of (p : pc) : list event :=
  match p with PCall nm mf bf cur _ _ => call_pre nm mf bf cur | _ => [] end.

Definition is_post (t : nat) (post : list event) : Prop :=
  post = [] \/ (exists b n, post = [EvWarn b n]) \/ exists b, post = [EvRet t b].

Lemma post_ev t post e : is_post t post -> In e post -> (exists b n, e = EvWarn b n) \/ exists b, e = EvRet t b.
Proof. intros [->|[(b & n & ->)|(b & ->)]] I; [destruct I| |]; destruct I as [<-|[]]; eauto. Qed.

(* A step of t after which nothing new is popped or held: t moves to a pc that is not PCall,
   the consumed glue and the pending table stay, and the only call logged is the one t was about
   to make.  The thread map is given pointwise, so that the blocked step (p' = PSlow) is one. *)
Record stays (t : nat) (s s' : st) (l : list irop) (p' : pc) (post : list event) : Prop := mkstays {
  st_mods : mods s' = mods (apply_irs l s);
  st_nrem : g_nrem s' = g_nrem (apply_irs l s);
  st_popped : popped s' = popped s;
  st_pend : pend s' = pend s;
  st_nreg : nreg s' = nreg s;
  st_late : g_late s' = g_late s;
  st_thr : forall t', thr s' t' = upd (thr s) t p' t';
  st_pc : is_pcall p' = false;
  st_log : log s' = post ++ pre_of (thr s t) ++ log s;
  st_post : is_post t post;
  st_started : g_started s' = false -> g_started s = false /\ thr s t <> PIdle
}.

(* seen from the loop body, a step of a thread is a visit or stays *)
Inductive body_case (c : cfg) (w : world) (t : nat) (s : st) : st -> Prop :=
  | BcStay s' l p' post : stays t s s' l p' post -> body_case c w t s s'
  | BcVisit nm todo k :
      thr s t = PScan (nm :: todo) k -> body_case c w t s (visit c w t nm todo k s).

Lemma body_cases c w t s : body_case c w t s (tstep c w t s).
Proof.
  assert (OUT : forall p, in_region p = false -> is_pcall p = false /\ pre_of p = []) by (destruct p; auto; discriminate).
  destruct (tstep_cases c w t s) as [p' th post gs R R' TH _ FAST GS|E _|E|k E|nm todo k E|nm mf bf cur todo k l post p' E PP];
    [| | | |apply BcVisit; exact E|].
  - apply BcStay with (l := []) (p' := p') (post := post). constructor; try reflexivity; try assumption; simpl.
    + apply OUT, R'.
    + rewrite (proj2 (OUT _ R)). reflexivity.
    + destruct FAST as [->|[-> _]]; unfold is_post; eauto.
    + intros X. destruct GS as [->|[-> NI]]; [discriminate|auto].
  - apply BcStay with (l := []) (p' := PLocked) (post := []). constructor; try reflexivity; simpl; rewrite ?E.
    + reflexivity.
    + left; reflexivity.
    + split; [assumption|discriminate].
  - apply BcStay with (l := []) (p' := PScan (map fst (mods s)) (w_base w + length (mods s))) (post := []).
    constructor; try reflexivity; simpl; rewrite ?E.
    + reflexivity.
    + left; reflexivity.
    + split; [assumption|discriminate].
  - apply BcStay with (l := []) (p' := PDone true) (post := [EvRet t true]). constructor; try reflexivity; simpl; rewrite ?E.
    + reflexivity.
    + right; right; exists true; reflexivity.
    + split; [assumption|discriminate].
  - apply BcStay with (l := l) (p' := p') (post := post). constructor; try reflexivity; simpl; rewrite ?E.
    + exact (call_out_pcall PP).
    + reflexivity.
    + destruct PP as [[_ [->|[b ->]]]|[_ ->]]; unfold is_post; eauto.
    + split; [assumption|discriminate].
Qed.

(* One step of the environment: the operations l on sys.modules, the events evs, the new
   pending table, registration count and g_late. *)
Inductive env_case (w : world) (s : st) :
    envop -> list irop -> list event -> list (nat * nat) -> nat -> bool -> Prop :=
  | EcIR i : env_case w s (EIR i) [i] [] (pend s) (nreg s) (g_late s)
  | EcRefused n f :
      m_get (pend s) n = Some f ->
      env_case w s (EReg n) [] [EvAssert n] (pend s) (S (nreg s)) (g_late s || g_started s)
  | EcDropped n o :
      m_get (pend s) n = None -> m_get (mods s) n = Some o -> has_own w s o = true ->
      env_case w s (EReg n) [] [] (pend s) (S (nreg s)) (g_late s || g_started s)
  | EcNow n o :
      m_get (pend s) n = None -> m_get (mods s) n = Some o -> has_own w s o = false ->
      env_case w s (EReg n) (feff (bfn_of w (nreg s))) [EvImm (nreg s) n o] (pend s) (S (nreg s))
               (g_late s || g_started s)
  | EcPending n :
      m_get (pend s) n = None -> m_get (mods s) n = None ->
      env_case w s (EReg n) [] [] (pend s ++ [(n, nreg s)]) (S (nreg s)) (g_late s || g_started s).

Lemma env_cases w e s :
  exists l evs pd nr lt, env_case w s e l evs pd nr lt /\ apply_env w e s = frame_state s l (popped s) pd (lock s) (thr s) (evs ++ log s) nr (g_started s) lt.
Proof.
  destruct e as [i|n].
  - eexists _, _, _, _, _. split; [apply EcIR|].
    change (apply_env w (EIR i) s) with (apply_irs [i] s).
    rewrite (@irs_transport [i] s s eq_refl) at 1. reflexivity.
  - simpl. destruct (m_get (pend s) n) as [f|] eqn:P;
      [|destruct (m_get (mods s) n) as [o|] eqn:M; [destruct (has_own w s o) eqn:H|]];
      eexists _, _, _, _, _.
    + split; [eapply EcRefused; exact P|reflexivity].
    + split; [eapply EcDropped; eassumption|reflexivity].
    + split; [eapply EcNow; eassumption|].
      match goal with |- apply_irs ?l ?x = _ => rewrite (@irs_transport l s x eq_refl) end. reflexivity.
    + split; [eapply EcPending; eassumption|reflexivity].
Qed.

Definition is_quiet_ev (e : event) : bool :=
  match e with EvAssert _ | EvImm _ _ _ => true | _ => false end.

Lemma env_case_quiet w s e l evs pd nr lt :
  env_case w s e l evs pd nr lt -> forall x, In x evs -> is_quiet_ev x = true.
Proof. intros [ | | | | ] x X; simpl in X; try tauto; destruct X as [<-|[]]; reflexivity. Qed.

Fixpoint nM (o : nat) (l : list event) : nat :=
  match l with
  | [] => 0
  | EvCallM o' _ _ :: r => (if o' =? o then 1 else 0) + nM o r
  | _ :: r => nM o r
  end.

Definition inflightM (o : nat) (p : pc) : bool :=
  match p with PCall _ (Some o') _ _ _ _ => o' =? o | _ => false end.

Lemma npc_inflightM o p : is_pcall p = false -> inflightM o p = false.
Proof. destruct p; auto; discriminate. Qed.

Lemma nM_app o a b : nM o (a ++ b) = nM o a + nM o b.
Proof. induction a as [|[] a IH]; simpl; auto. rewrite IH. apply Nat.add_assoc. Qed.

(* Module glue and built-in glue functions are each a token: available (to the next visit that
   finds it), held by the one thread that has popped it and not yet called it, or used, which is
   counted in the log.  A token that is not yet born (a function not yet registered) is none of
   these. *)
Section Token.
Variable avail : st -> Prop.
Variable hold : pc -> bool.
Variable cnt : list event -> nat.
Variable born : st -> Prop.
Hypothesis cnt_app : forall a b, cnt (a ++ b) = cnt a + cnt b.
Hypothesis cnt_post : forall t post, is_post t post -> cnt post = 0.
Hypothesis hold_pcall : forall p, is_pcall p = false -> hold p = false.
Hypothesis cnt_pre : forall p, cnt (pre_of p) = 0 \/ cnt (pre_of p) = 1 /\ hold p = true.

Definition fresh (s : st) : Prop := ~ avail s /\ (forall t, hold (thr s t) = false) /\ cnt (log s) = 0.

Definition Tok (s : st) : Prop :=
  (forall t, hold (thr s t) = true -> ~ avail s /\ cnt (log s) = 0)
  /\ (forall t1 t2, hold (thr s t1) = true -> hold (thr s t2) = true -> t1 = t2)
  /\ (avail s -> cnt (log s) = 0)
  /\ cnt (log s) <= 1
  /\ (~ born s -> fresh s).

(* nobody takes the token; the count grows by d, which is 1 only if a holder has let go of it *)
Lemma Tok_keep s s' d :
  (forall t, hold (thr s' t) = true -> hold (thr s t) = true) -> (avail s' -> avail s) -> (born s -> born s') ->
  cnt (log s') = d + cnt (log s) ->
  d = 0 \/ d = 1 /\ (exists t, hold (thr s t) = true /\ hold (thr s' t) = false) ->
  Tok s -> Tok s'.
Proof.
  intros H AV BO CN D (A & B & C & E & F).
  assert (D' : d = 0 \/ d = 1 /\ cnt (log s) = 0 /\ ~ avail s /\ forall t, hold (thr s' t) = true -> False).
  { destruct D as [D|(D & t & X & Y)]; [left; exact D|right]. destruct (A t X) as [NA Z].
    split; [exact D|split; [exact Z|split; [exact NA|]]].
    intros t' X'. rewrite (B t' t (H _ X') X) in X'. congruence. }
  unfold Tok, fresh. rewrite CN. split; [|split; [|split; [|split]]].
  - intros t X. destruct D' as [->|(-> & Z & NA & NO)]; [|elim (NO t X)].
    destruct (A t (H t X)) as [NA Z]. split; [intros Y; exact (NA (AV Y))|exact Z].
  - intros t1 t2 X Y. apply B; apply H; assumption.
  - intros X. destruct D' as [->|(-> & Z & NA & _)]; [exact (C (AV X))|elim (NA (AV X))].
  - destruct D' as [->|(-> & Z & _)]; [exact E|rewrite Z; apply le_n].
  - intros NB. destruct F as (NA & NH & Z); [intros Y; exact (NB (BO Y))|].
    split; [intros Y; exact (NA (AV Y))|split].
    + intros t. destruct (hold (thr s' t)) eqn:X; [|reflexivity]. apply H in X. rewrite NH in X. discriminate.
    + destruct D as [->|(_ & t & X & _)]; [exact Z|rewrite NH in X; discriminate].
Qed.

Lemma Tok_take s s' t p' :
  (forall t', thr s' t' = upd (thr s) t p' t') -> avail s -> ~ avail s' -> (born s -> born s') ->
  cnt (log s') = cnt (log s) -> Tok s -> Tok s'.
Proof.
  intros TH AV NAV BO CN (A & B & C & E & F).
  assert (ONE : forall t', hold (thr s' t') = true -> t' = t).
  { intros t' X. rewrite TH in X. unfold upd in X. destruct (Nat.eqb_spec t' t); [assumption|].
    destruct (A t' X) as [NA _]. elim (NA AV). }
  unfold Tok. rewrite CN, (C AV). split; [|split; [|split; [|split]]].
  - intros _ _. split; [exact NAV|reflexivity].
  - intros t1 t2 X Y. rewrite (ONE _ X), (ONE _ Y). reflexivity.
  - reflexivity.
  - apply Nat.le_0_l.
  - intros NB. destruct F as (NA & _); [intros Y; exact (NB (BO Y))|]. elim (NA AV).
Qed.

Lemma Tok_birth s s' :
  ~ born s -> born s' -> (forall t, hold (thr s' t) = hold (thr s t)) ->
  cnt (log s') <= 1 -> (avail s' -> cnt (log s') = 0) -> Tok s -> Tok s'.
Proof.
  intros NB BS TH LE AV (_ & _ & _ & _ & F). destruct (F NB) as (_ & NH & _).
  assert (NO : forall t, hold (thr s' t) = true -> False) by (intros t X; rewrite TH, NH in X; discriminate).
  split; [|split; [|split; [|split]]]; auto; intros; exfalso; eauto.
Qed.

(* a step that is not a visit: the call t logs, if any, is the one it held *)
Lemma Tok_stays t s s' l p' post :
  stays t s s' l p' post -> (avail s' -> avail s) -> (born s -> born s') -> Tok s -> Tok s'.
Proof.
  intros ST AV BO. apply Tok_keep with (d := cnt (pre_of (thr s t))); auto.
  - intros t' X. apply (upd_false hold _ _ _ _ (st_thr ST) (hold_pcall _ (st_pc ST)) t' X).
  - rewrite (st_log ST), !cnt_app, (cnt_post (st_post ST)). reflexivity.
  - destruct (cnt_pre (thr s t)) as [D|[D X]]; [left; exact D|right]. split; [exact D|exists t].
    split; [exact X|]. rewrite (st_thr ST), upd_same. apply hold_pcall, (st_pc ST).
Qed.
End Token.

Section Once.
Variable c : cfg.
Variable w : world.
Hypothesis Hpop : c_pop c = true.
Variable o : nat.

(* o's glue is on offer until o is popped; once popped it is held or has been called *)
Definition IM (s : st) : Prop :=
  Tok (fun s => ~ In o (popped s)) (inflightM o) (nM o) (fun _ => True) s
  /\ (In o (popped s) -> nM o (log s) = 1 \/ exists t, inflightM o (thr s t) = true).

Lemma IM_quiet s s' t p' :
  (forall t', thr s' t' = upd (thr s) t p' t') -> inflightM o (thr s t) = false -> inflightM o p' = false ->
  (In o (popped s') <-> In o (popped s)) -> log s' = log s -> IM s -> IM s'.
Proof.
  intros TH NH NP PO LG [T E]. pose proof (upd_false (inflightM o) _ _ _ _ TH NP) as HF. split.
  - revert T. apply Tok_keep with (d := 0); simpl; auto.
    + intros t' X. apply (HF t' X).
    + intros X Y. apply X, PO, Y.
    + rewrite LG. reflexivity.
  - intros P. rewrite LG. apply PO in P. destruct (E P) as [Y|[t0 Y]]; [left; exact Y|right].
    exists t0. rewrite TH, upd_other; [exact Y|]. intros ->. congruence.
Qed.

Lemma nM_post t post : is_post t post -> nM o post = 0.
Proof. intros [->|[(b & n & ->)|(b & ->)]]; reflexivity. Qed.

Lemma nM_pre p : nM o (pre_of p) = if inflightM o p then 1 else 0.
Proof. destruct p as [| | | | | |nm [o'|] [f|] cur todo k|]; try reflexivity; simpl; destruct (o' =? o); reflexivity. Qed.

Lemma IM_tstep t s : IM s -> IM (tstep c w t s).
Proof.
  intros I. pose proof I as [T E]. pose proof T as (A & _).
  destruct (body_cases c w t s) as [s' l p' post ST|nm todo k V].
  - assert (PRE : forall p, nM o (pre_of p) = 0 \/ nM o (pre_of p) = 1 /\ inflightM o p = true)
      by (intros p; rewrite nM_pre; destruct (inflightM o p); auto).
    split.
    + revert T. apply (Tok_stays (nM_app o) nM_post (npc_inflightM o) PRE ST); [rewrite (st_popped ST)|]; auto.
    + rewrite (st_popped ST), (st_log ST), !nM_app, (nM_post (st_post ST)), nM_pre. intros P. destruct (E P) as [Y|[t0 Y]].
      * left. destruct (inflightM o (thr s t)) eqn:IF; [destruct (A t IF); lia|exact Y].
      * destruct (Nat.eq_dec t0 t) as [->|NE]; [left; rewrite Y; destruct (A t Y) as [_ ->]; reflexivity|].
        right. exists t0. rewrite (st_thr ST), upd_other by exact NE. exact Y.
  - rewrite visit_eq by exact Hpop.
    assert (DEC : visit_mf w s nm = Some o \/ visit_mf w s nm <> Some o).
    { destruct (visit_mf w s nm) as [o'|]; [destruct (Nat.eq_dec o' o) as [->|NE]|]; [left; reflexivity|right; congruence|right; discriminate]. }
    destruct DEC as [VM|VM].
    + (* the visit takes o's glue *)
      destruct (visit_mf_some _ _ _ VM) as (_ & _ & NIP). rewrite VM. split.
      * revert T. apply Tok_take with (t := t) (p' := visit_pc w s nm todo k); simpl; auto.
      * intros _. right. exists t. simpl. rewrite upd_same. unfold visit_pc. rewrite VM. simpl. apply Nat.eqb_refl.
    + revert I. apply IM_quiet with (t := t) (p' := visit_pc w s nm todo k); simpl; auto.
      * rewrite V. reflexivity.
      * unfold visit_pc. destruct (some_or _ _); [|reflexivity]. simpl.
        destruct (visit_mf w s nm) as [o'|]; [|reflexivity]. apply Nat.eqb_neq. congruence.
      * destruct (visit_mf w s nm) as [o'|]; [|tauto]. split; [intros [X|X]; [congruence|exact X]|right; assumption].
Qed.

Lemma IM_reachable scanned s : reachable c w scanned s -> IM s.
Proof.
  apply reachable_ind with (P := IM).
  - split; [|intros []]. split; [|split; [|split; [|split]]]; simpl; auto; try discriminate. intros X. elim X. exact I.
  - intros s0 [e|t] _ H; simpl; [|apply IM_tstep; exact H].
    destruct (env_cases w e s0) as (l & evs & pd & nr & lt & EC & ->).
    assert (N : nM o (evs ++ log s0) = nM o (log s0)) by (destruct EC; reflexivity).
    unfold IM, Tok, fresh in *. simpl. rewrite N. exact H.
Qed.
End Once.

Fixpoint nB (f : nat) (l : list event) : nat :=
  match l with
  | [] => 0
  | EvCallB f' _ _ :: r => (if f' =? f then 1 else 0) + nB f r
  | EvImm f' _ _ :: r => (if f' =? f then 1 else 0) + nB f r
  | _ :: r => nB f r
  end.

Lemma nB_app f a b : nB f (a ++ b) = nB f a + nB f b.
Proof. induction a as [|[] a IH]; simpl; auto; rewrite IH; apply Nat.add_assoc. Qed.

Definition heldf (f : nat) (p : pc) : bool :=
  match p with PCall _ _ (Some f') _ _ _ => f' =? f | _ => false end.

Lemma npc_heldf f p : is_pcall p = false -> heldf f p = false.
Proof. destruct p; simpl; try reflexivity; discriminate. Qed.

Section OnceB.
Variable c : cfg.
Variable w : world.
Hypothesis Hpop : c_pop c = true.

(* Function g is on offer while it is a value of the pending table; it is born when registered.
   The table never holds a function twice. *)
Definition TokB (g : nat) : st -> Prop :=
  Tok (fun s => In g (map snd (pend s))) (heldf g) (nB g) (fun s => g < nreg s).

Definition IB (s : st) : Prop := NoDup (map snd (pend s)) /\ forall g, TokB g s.

Lemma nB_post g t post : is_post t post -> nB g post = 0.
Proof. intros [->|[(b & n & ->)|(b & ->)]]; reflexivity. Qed.

Lemma nB_pre g p : nB g (pre_of p) = 0 \/ nB g (pre_of p) = 1 /\ heldf g p = true.
Proof. destruct p as [| | | | | |nm [o'|] [f|] cur todo k|]; simpl; auto. destruct (f =? g); auto. Qed.

Lemma IB_tstep t s : IB s -> IB (tstep c w t s).
Proof.
  intros [ND T].
  destruct (body_cases c w t s) as [s' l p' post ST|nm todo k V].
  - rewrite <- (st_pend ST) in ND. split; [exact ND|]. intros g. generalize (T g).
    apply (Tok_stays (nB_app g) (@nB_post g) (npc_heldf g) (nB_pre g) ST).
    + rewrite (st_pend ST). auto.
    + rewrite (st_nreg ST). auto.
  - (* the visit takes the function pending for nm *)
    rewrite visit_eq by exact Hpop. split; [apply NoDup_map_m_del; exact ND|]. intros g. generalize (T g).
    assert (DEC : m_get (pend s) nm = Some g \/ m_get (pend s) nm <> Some g).
    { destruct (m_get (pend s) nm) as [f|]; [destruct (Nat.eq_dec f g) as [->|NE]|]; [left; reflexivity|right; congruence|right; discriminate]. }
    destruct DEC as [P|P].
    + apply Tok_take with (t := t) (p' := visit_pc w s nm todo k); simpl; auto.
      * change g with (snd (nm, g)). apply in_map, m_get_In, P.
      * apply m_del_value_gone; assumption.
    + apply Tok_keep with (d := 0); simpl; auto; [|apply In_map_m_del].
      intros t' X. unfold upd in X. destruct (t' =? t); [|exact X].
      exfalso. apply P. revert X. unfold visit_pc. destruct (some_or _ _); [|discriminate]. simpl.
      destruct (m_get (pend s) nm) as [f|]; [|discriminate]. intros X. apply Nat.eqb_eq in X. congruence.
Qed.

Lemma IB_env e s : IB s -> IB (apply_env w e s).
Proof.
  intros [ND T]. destruct (env_cases w e s) as (l & evs & pd & nr & lt & EC & ->).
  destruct (T (nreg s)) as (_ & _ & _ & _ & F). destruct (F (Nat.lt_irrefl _)) as (F1 & F2 & F3).
  (* a function that is not registered by this step stays as it is *)
  assert (SAME : forall g lg pd nr lt, nB g lg = nB g (log s) -> (In g (map snd pd) -> In g (map snd (pend s))) ->
            nreg s <= nr -> TokB g (frame_state s l (popped s) pd (lock s) (thr s) lg nr (g_started s) lt)).
  { intros g lg pd' nr' lt' Z AV LE. generalize (T g). apply Tok_keep with (d := 0); simpl; auto. lia. }
  destruct EC as [i|n f0 P|n o P M HO|n o P M HO|n P M]; (split; [|intros g]); simpl; auto.
  - (* run at once *)
    destruct (Nat.eqb_spec (nreg s) g) as [<-|NE]; [|apply SAME; simpl; auto; apply Nat.eqb_neq in NE; rewrite NE; reflexivity].
    generalize (T (nreg s)). apply Tok_birth; simpl; auto using Nat.lt_irrefl.
    + rewrite Nat.eqb_refl, F3. apply le_n.
    + intros X. elim (F1 X).
  - (* made pending *)
    rewrite map_app. apply NoDup_snoc; assumption.
  - destruct (Nat.eq_dec g (nreg s)) as [->|NE].
    + generalize (T (nreg s)). apply Tok_birth; simpl; auto using Nat.lt_irrefl. rewrite F3. auto.
    + apply SAME; auto. rewrite map_app, in_app_iff. simpl. intros [X|[X|[]]]; [exact X|congruence].
Qed.

Lemma IB_reachable scanned s : reachable c w scanned s -> IB s.
Proof.
  apply reachable_ind with (P := IB).
  - split; [constructor|]. intros g. split; [|split; [|split; [|split]]]; simpl; auto; try discriminate.
    intros _. repeat split; auto.
  - intros s0 [e|t] _ H; [apply IB_env|apply IB_tstep]; exact H.
Qed.
End OnceB.

Definition pendingM (w : world) (s : st) (n o : nat) : Prop :=
  m_get (mods s) n = Some o /\ glue_of w o <> None /\ ~ In o (popped s).
Definition pendingB (w : world) (s : st) (n f : nat) : Prop :=
  (exists o, m_get (mods s) n = Some o /\ (glue_of w o = None \/ In o (popped s)))
  /\ m_get (pend s) n = Some f.
Definition calledM (s : st) (o : nat) : Prop := exists n d, In (EvCallM o n d) (log s).
Definition calledB (s : st) (f : nat) : Prop := exists n d, In (EvCallB f n d) (log s).

Definition hist_ok (h : list clabel) : bool :=
  forallb (fun l => match l with CEnv _ | CFull _ => true | _ => false end) h.

(* one whole call of add_glue_as_needed by thread t *)
Definition extraction (c : cfg) (w : world) (t : nat) (s : st) : st :=
  to_done c w FUEL t (tstep c w t s).

Lemma nM_calledM o l : 0 < nM o l <-> exists n d, In (EvCallM o n d) l.
Proof.
  induction l as [|e l IH]; [split; [inversion 1|intros (n & d & [])]|].
  assert (TL : nM o (e :: l) = nM o l -> (forall n d, e <> EvCallM o n d) ->
               (0 < nM o (e :: l) <-> exists n d, In (EvCallM o n d) (e :: l))).
  { intros -> NE. rewrite IH. split; intros (n & d & H); exists n, d; [right; exact H|].
    destruct H as [H|H]; [elim (NE _ _ H)|exact H]. }
  destruct e as [o' n' d'| | | | |]; try (apply TL; [reflexivity|discriminate]).
  destruct (Nat.eq_dec o' o) as [->|NE].
  - simpl. rewrite Nat.eqb_refl. split; [intros _; exists n', d'; left; reflexivity|lia].
  - apply TL; [simpl; destruct (Nat.eqb_spec o' o); [contradiction|reflexivity]|congruence].
Qed.

Definition g1_world := mkworld 1 [OMod (Some (mkfn BOk []))] [mkfn BOk []].

Definition no_base (w : world) : Prop :=
  (forall o fs, glue_of w o = Some fs -> fbeh fs <> BBase) /\ (forall f, fbeh (bfn_of w f) <> BBase).

Lemma thr_finish_ok c t nm mk todo k b s1 :
  c_guarded c = true -> b <> BBase -> thr (finish c t nm mk todo k b s1) t = PScan todo k.
Proof. intros G NB. unfold finish. rewrite G. destruct b; [| |congruence]; simpl; apply upd_same. Qed.

Lemma raise_is_warning c (w : world) (s : st) (t nm : nat) mf bf cur todo n fs mk :
  c_guarded c = true ->
  thr s t = PCall nm mf bf cur todo n ->
  selected w mf bf = Some (fs, mk) -> fbeh fs = BRaise ->
  let s' := tstep c w t s in
  (exists ev, log s' = EvWarn mk nm :: ev :: log s /\ is_call ev = true)
  /\ thr s' t = PScan todo n /\ lock s' = lock s /\ cache s' = cache s /\ pend s' = pend s.
Proof.
  intros G E S B. unfold tstep. rewrite E.
  destruct (call_some c w t nm mf bf cur todo n s S) as (ev & _ & IC & ->).
  unfold finish. rewrite B, G, apply_irs_eta. simpl. rewrite Nat.eqb_refl. repeat split. exists ev. split; [reflexivity|exact IC].
Qed.

Lemma scan_completes c (w : world) (t : nat) :
  c_guarded c = true -> no_base w ->
  forall todo s n, thr s t = PScan todo n ->
  exists k, let s' := run c w (repeat (LThr t) k) s in
    thr s' t = PDone true /\ cache s' = n /\ In (EvRet t true) (log s').
Proof.
  intros G [NB1 NB2]. induction todo as [|nm todo IH]; intros s n E.
  - exists 1. simpl. unfold tstep. rewrite E, release_eq. simpl. rewrite Nat.eqb_refl. auto.
  - (* one visit, maybe one call, then the induction hypothesis *)
    set (s1 := tstep c w t s).
    assert (V : thr s1 t = PScan todo n \/ exists mf bf cur, thr s1 t = PCall nm mf bf cur todo n).
    { unfold s1, tstep. rewrite E. unfold visit. simpl. rewrite Nat.eqb_refl.
      match goal with |- context [some_or ?a ?b] => destruct (some_or a b) end; eauto 6. }
    destruct V as [V|(mf & bf & cur & V)].
    + destruct (IH s1 n V) as [k H]. exists (S k). exact H.
    + assert (W : thr (tstep c w t s1) t = PScan todo n).
      { unfold tstep. rewrite V. destruct (selected w mf bf) as [[fs mk]|] eqn:S.
        - destruct (call_some c w t nm mf bf cur todo n s1 S) as (ev & _ & _ & ->).
          apply thr_finish_ok; [exact G|]. unfold selected in S.
          destruct mf as [o|]; [|destruct bf as [f|]; [|discriminate]]; inversion S; subst; [|apply NB2].
          destruct (glue_of w o) eqn:GL; [eapply NB1; exact GL|discriminate].
        - destruct (call_none c w t nm mf bf cur todo n s1 S) as [_ ->]. apply upd_same. }
      destruct (IH _ n W) as [k H]. exists (S (S k)). exact H.
Qed.

Definition is_MB (e : event) : bool := match e with EvCallM _ _ _ | EvCallB _ _ _ => true | _ => false end.

Lemma quiet_not_MB e : is_quiet_ev e = true -> is_MB e = false.
Proof. destruct e; auto; discriminate. Qed.

Lemma pre_MB p e : In e (pre_of p) -> is_MB e = true.
Proof.
  destruct p as [| | | | | |nm [o|] [f|] cur todo k|]; simpl; try tauto; intros [<-|[]]; reflexivity.
Qed.

(* Several invariants speak of the calls of some kind that are in the log or held by a thread
   that has popped the function and not yet called it.  [ev] says which call events are meant; a
   thread holds such a call when the event its call will log is one. *)
Definition held (ev : event -> bool) (p : pc) : bool := existsb ev (pre_of p).

Definition live (ev : event -> bool) (s : st) : Prop :=
  (exists e, In e (log s) /\ ev e = true) \/ exists t, held ev (thr s t) = true.

Lemma held_pcall ev p : is_pcall p = false -> held ev p = false.
Proof. destruct p; auto; discriminate. Qed.

Lemma held_visit ev w s nm todo k :
  held ev (visit_pc w s nm todo k) = true ->
  match visit_mf w s nm with
  | Some o => ev (EvCallM o nm (m_get (pend s) nm)) = true
  | None => exists f, m_get (pend s) nm = Some f /\ ev (EvCallB f nm (m_get (mods s) nm)) = true
  end.
Proof.
  unfold held, visit_pc. destruct (some_or _ _); [|discriminate]. simpl.
  destruct (visit_mf w s nm); simpl; [rewrite orb_false_r; auto|].
  destruct (m_get (pend s) nm) as [f|]; simpl; [|discriminate]. rewrite orb_false_r. eauto.
Qed.

Lemma live_mono (ev ev' : event -> bool) s : (forall e, ev e = true -> ev' e = true) -> live ev s -> live ev' s.
Proof.
  intros A [(e & I & X)|[t X]]; [left; eauto|right; exists t].
  apply existsb_exists in X. apply existsb_exists. destruct X as (e & I & X). eauto.
Qed.

Section Live.
Variable ev : event -> bool.
Hypothesis ev_MB : forall e, is_MB e = false -> ev e = false.

Lemma live_back s s' t p' evs :
  log s' = evs ++ log s -> (forall t', thr s' t' = upd (thr s) t p' t') ->
  (forall e, In e evs -> ev e = true -> held ev (thr s t) = true) ->
  live ev s' -> live ev s \/ held ev p' = true.
Proof.
  intros L T NEW [(e & I & X)|[t' X]].
  - rewrite L in I. apply in_app_or in I. destruct I as [I|I]; left; [right; exists t; eauto|left; eauto].
  - rewrite T in X. unfold upd in X. destruct (t' =? t); [right; exact X|left; right; eauto].
Qed.

Lemma live_stays t s s' l p' post : stays t s s' l p' post -> live ev s' -> live ev s.
Proof.
  intros ST H.
  apply (@live_back s s' t p' (post ++ pre_of (thr s t))) in H; [|rewrite (st_log ST); apply app_assoc|exact (st_thr ST)|].
  - destruct H as [H|H]; [exact H|rewrite held_pcall in H by exact (st_pc ST); discriminate].
  - intros e I X. apply in_app_or in I. destruct I as [I|I]; [|apply existsb_exists; eauto].
    rewrite ev_MB in X; [discriminate|]. destruct (post_ev _ (st_post ST) I) as [(b & n & ->)|(b & ->)]; reflexivity.
Qed.

Lemma live_env s s' evs :
  log s' = evs ++ log s -> thr s' = thr s -> (forall e, In e evs -> is_quiet_ev e = true) -> live ev s' -> live ev s.
Proof.
  intros L T Q [(e & I & X)|[t X]]; [|right; exists t; rewrite <- T; exact X].
  rewrite L in I. apply in_app_or in I. destruct I as [I|I]; [|left; eauto].
  rewrite ev_MB in X by (apply quiet_not_MB, Q, I). discriminate.
Qed.

Lemma live_dead s : (forall t, thr s t = PIdle) -> (forall e, In e (log s) -> is_MB e = false) -> ~ live ev s.
Proof.
  intros ID NOMB [(e & I & X)|[t X]].
  - rewrite ev_MB in X by (apply NOMB; exact I). discriminate.
  - rewrite ID in X. discriminate.
Qed.
End Live.

Definition settled (w : world) (s : st) (o : nat) : Prop := glue_of w o = None \/ In o (popped s).

Section Prefers.
Variable c : cfg.
Variable w : world.
Hypothesis Hpop : c_pop c = true.
Variable o : nat.

(* built-in calls whose visit found object o *)
Definition Bo_ev (e : event) : bool := match e with EvCallB _ _ (Some o') => o' =? o | _ => false end.

Lemma Bo_MB e : is_MB e = false -> Bo_ev e = false.
Proof. destruct e; auto; discriminate. Qed.

Definition PM (s : st) : Prop := live Bo_ev s -> settled w s o.

Lemma PM_reachable scanned s : reachable c w scanned s -> PM s.
Proof.
  apply reachable_ind with (P := PM).
  - intros H. elim (live_dead Bo_MB (s := init w scanned)); auto. intros e [].
  - intros s0 [e|t] _ IH; simpl.
    + destruct (env_cases w e s0) as (l & evs & pd & nr & lt & EC & ->).
      intros H. apply IH. revert H.
      apply (live_env Bo_MB) with (evs := evs); [reflexivity|reflexivity|exact (env_case_quiet EC)].
    + destruct (body_cases c w t s0) as [s' l p' post ST|nm todo k E].
      * intros H. unfold settled. rewrite (st_popped ST). apply IH. revert H. exact (live_stays Bo_MB ST).
      * rewrite visit_eq by exact Hpop. intros H.
        apply live_back with (s := s0) (t := t) (p' := visit_pc w s0 nm todo k) (evs := []) in H; [|reflexivity|reflexivity|intros e []].
        unfold settled. simpl. destruct H as [H|H].
        -- destruct (IH H) as [X|X]; [left; exact X|right]. destruct (visit_mf w s0 nm); [right|]; exact X.
        -- (* the visit selects a built-in for o: no module function was on offer *)
           apply held_visit in H. destruct (visit_mf w s0 nm) eqn:V; [discriminate|]. destruct H as (f & _ & H).
           simpl in H. destruct (m_get (mods s0) nm) as [o'|] eqn:M; [|discriminate].
           apply Nat.eqb_eq in H. subst o'. destruct (visit_mf_none _ _ _ V M); auto.
Qed.
End Prefers.

Lemma popped_glue c w scanned s : c_pop c = true -> reachable c w scanned s ->
  forall o, In o (popped s) -> glue_of w o <> None.
Proof.
  intros Hpop R. pattern s. revert s R. apply reachable_ind.
  - simpl. tauto.
  - intros s0 [e|t] _ IH; simpl.
    + destruct (env_cases w e s0) as (l & evs & pd & nr & lt & _ & ->). exact IH.
    + destruct (body_cases c w t s0) as [s' l p' post ST|nm todo k E]; [rewrite (st_popped ST); exact IH|].
      rewrite visit_eq by exact Hpop. simpl. destruct (visit_mf w s0 nm) as [o'|] eqn:V; [|exact IH].
      intros o [<-|H]; [apply (visit_mf_some _ _ _ V)|apply IH; exact H].
Qed.

Lemma ex_upd_back (P : pc -> bool) f t p' :
  P (f t) = false -> (exists t', P (f t') = true) -> exists t', P (upd f t p' t') = true.
Proof.
  intros NF [t' H]. exists t'. unfold upd. destruct (t' =? t) eqn:Q; [|exact H].
  apply Nat.eqb_eq in Q. subst. congruence.
Qed.

Section NeverBoth.
Variable c : cfg.
Variable w : world.
Hypothesis Hpop : c_pop c = true.
Variables n o : nat.

(* module calls for name n; module calls of o for name n; built-in calls for n that found o *)
Definition Mn_ev (e : event) : bool := match e with EvCallM _ n' _ => n' =? n | _ => false end.
Definition Mc_ev (e : event) : bool :=
  match e with EvCallM o' n' _ => (n' =? n) && (o' =? o) | _ => false end.
Definition Bc_ev (e : event) : bool :=
  match e with EvCallB _ n' (Some o') => (n' =? n) && (o' =? o) | _ => false end.

Lemma Mn_MB e : is_MB e = false -> Mn_ev e = false.
Proof. destruct e; auto; discriminate. Qed.
Lemma Mc_MB e : is_MB e = false -> Mc_ev e = false.
Proof. destruct e; auto; discriminate. Qed.
Lemma Bc_MB e : is_MB e = false -> Bc_ev e = false.
Proof. destruct e; auto; discriminate. Qed.

(* As long as every registration precedes the first extraction: nothing happens before the
   first extraction starts; once module glue for n is called or in flight nothing is pending
   for n (the same visit popped it); o's glue and a built-in that found o exclude each other;
   a built-in run at registration found a module without glue. *)
Definition NB (s : st) : Prop :=
  g_late s = false ->
  (g_started s = false ->
     popped s = [] /\ (forall t, thr s t = PIdle) /\ (forall e, In e (log s) -> is_MB e = false))
  /\ (live Mn_ev s -> m_get (pend s) n = None)
  /\ (live Mc_ev s -> live Bc_ev s -> False)
  /\ (forall f n' o', In (EvImm f n' o') (log s) -> glue_of w o' = None).

Lemma Mc_Mn s : live Mc_ev s -> live Mn_ev s.
Proof. apply live_mono. intros [o' n' d| | | | |] H; try discriminate. apply andb_true_iff in H. tauto. Qed.

Lemma Bc_settled s : PM w o s -> live Bc_ev s -> settled w s o.
Proof.
  intros P H. apply P. revert H. apply live_mono.
  intros [|f n' [o'|]| | | |] H; try discriminate. apply andb_true_iff in H. tauto.
Qed.

Lemma NB_stays t s s' l p' post : stays t s s' l p' post -> NB s -> NB s'.
Proof.
  intros ST N G. rewrite (st_late ST) in G. destruct (N G) as (N0 & N1 & N5 & N4).
  rewrite (st_pend ST). split; [|split; [|split]].
  - intros X. destruct (st_started ST X) as [X' NI]. destruct (N0 X') as (_ & ID & _). elim NI. apply ID.
  - intros X. apply N1, (live_stays Mn_MB ST), X.
  - intros X Y. exact (N5 (live_stays Mc_MB ST X) (live_stays Bc_MB ST Y)).
  - intros f n' o' X. rewrite (st_log ST) in X. apply in_app_or in X.
    destruct X as [X|X]; [destruct (post_ev _ (st_post ST) X) as [(b & n1 & Y)|(b & Y)]; discriminate|].
    apply in_app_or in X. destruct X as [X|X]; [apply pre_MB in X; discriminate|eapply N4; exact X].
Qed.

(* a registration: no extraction has started, so nothing is popped and no thread moves *)
Lemma NB_env e s : NB s -> NB (apply_env w e s).
Proof.
  intros N. destruct (env_cases w e s) as (l & evs & pd & nr & lt & EC & ->). intros GL. simpl in GL.
  pose proof (env_case_quiet EC) as QE.
  assert (IMM : forall f n' o', In (EvImm f n' o') evs -> has_own w s o' = false).
  { destruct EC; simpl; try tauto; intros ? ? ? [X|[]]; congruence. }
  assert (LT : lt = g_late s /\ pd = pend s /\ evs = [] \/ lt = g_late s || g_started s)
    by (destruct EC; auto).
  destruct LT as [(-> & -> & ->)| ->]; [exact (N GL)|].
  apply orb_false_iff in GL. destruct GL as [G1 G2].
  destruct (N G1) as (N0 & _ & _ & N4). destruct (N0 G2) as (PO & ID & NOMB).
  assert (C1 : forall e, In e (evs ++ log s) -> is_MB e = false).
  { intros x X. apply in_app_or in X. destruct X as [X|X]; [apply quiet_not_MB, QE, X|apply NOMB, X]. }
  split; [intros _; simpl; auto|].
  split; [intros X; exfalso; revert X; apply (live_dead Mn_MB); [exact ID|exact C1]|].
  split; [intros X; exfalso; revert X; apply (live_dead Mc_MB); [exact ID|exact C1]|].
  intros f1 n1 o1 X. simpl in X. apply in_app_or in X. destruct X as [X|X]; [|eapply N4; exact X].
  apply IMM in X. unfold has_own in X. rewrite PO in X. destruct (glue_of w o1); [discriminate|reflexivity].
Qed.

(* The visit of n is where a call for n becomes live: with a module function selected, the
   pending built-in is popped with it; a built-in is selected for o only if o is settled. *)
Lemma NB_visit s s' t nm todo k :
  PM w o s -> thr s t = PScan (nm :: todo) k -> NB s ->
  g_late s' = g_late s -> g_started s' = g_started s -> log s' = log s -> pend s' = m_del (pend s) nm ->
  (forall t', thr s' t' = upd (thr s) t (visit_pc w s nm todo k) t') -> NB s'.
Proof.
  intros P E N GL GS L PE T G. rewrite GL in G. destruct (N G) as (N0 & N1 & N5 & N4).
  assert (BACK : forall ev, live ev s' -> live ev s \/ held ev (visit_pc w s nm todo k) = true).
  { intros ev. apply live_back with (t := t) (evs := []); [exact L|exact T|intros e []]. }
  assert (MCnew : held Mc_ev (visit_pc w s nm todo k) = true -> nm = n /\ visit_mf w s nm = Some o).
  { intros H. apply held_visit in H.
    destruct (visit_mf w s nm) as [o'|]; simpl in H; [|destruct H as (f & _ & H); discriminate].
    apply andb_true_iff in H. destruct H as [H1 H2]. apply Nat.eqb_eq in H1. apply Nat.eqb_eq in H2. subst. auto. }
  assert (BCnew : held Bc_ev (visit_pc w s nm todo k) = true ->
            nm = n /\ visit_mf w s nm = None /\ m_get (pend s) n <> None).
  { intros H. apply held_visit in H. destruct (visit_mf w s nm) as [o'|]; simpl in H; [discriminate|].
    destruct H as (f & PD & H). destruct (m_get (mods s) nm); [|discriminate].
    apply andb_true_iff in H. destruct H as [H1 _]. apply Nat.eqb_eq in H1. subst. repeat split; congruence. }
  rewrite GS, L, PE. split; [|split; [|split; [|exact N4]]].
  - intros X. destruct (N0 X) as (_ & ID & _). rewrite ID in E. discriminate.
  - intros X. destruct (BACK _ X) as [Y|Y]; [apply m_get_del_none, N1, Y|].
    apply held_visit in Y. destruct (visit_mf w s nm); simpl in Y; [|destruct Y as (f & _ & Y); discriminate].
    apply Nat.eqb_eq in Y. subst. rewrite m_get_del, Nat.eqb_refl. reflexivity.
  - intros X Y. destruct (BACK _ X) as [X'|X']; destruct (BACK _ Y) as [Y'|Y'].
    + exact (N5 X' Y').
    + destruct (BCnew Y') as (_ & _ & Y3). apply Y3, N1, Mc_Mn, X'.
    + destruct (MCnew X') as [-> X2]. destruct (visit_mf_some _ _ _ X2) as (_ & GN & NP).
      destruct (Bc_settled P Y') as [Z|Z]; [exact (GN Z)|exact (NP Z)].
    + destruct (MCnew X') as [_ X2]. destruct (BCnew Y') as (_ & Y2 & _). congruence.
Qed.

Lemma NB_reachable scanned s : reachable c w scanned s -> NB s.
Proof.
  apply reachable_ind with (P := NB).
  - intros _. split; [intros _; simpl; repeat split; tauto|].
    split; [intros H; elim (live_dead Mn_MB (s := init w scanned)); auto; intros e []|].
    split; [intros H; elim (live_dead Mc_MB (s := init w scanned)); auto; intros e []|].
    intros f n' o' [].
  - intros s0 [e|t] R N; simpl; [apply NB_env; exact N|].
    destruct (body_cases c w t s0) as [s' l p' post ST|nm todo k E].
    + exact (NB_stays ST N).
    + rewrite visit_eq by exact Hpop.
      apply NB_visit with (s := s0) (t := t) (nm := nm) (todo := todo) (k := k); auto.
      exact (@PM_reachable c w Hpop o scanned s0 R).
Qed.
End NeverBoth.

Theorem never_both (w : world) (scanned : bool) (ls : list label) (n o : nat) :
  glue_pop_before_call = true ->
  let s := run src_cfg w ls (init w scanned) in
  g_late s = false ->
  forall d, In (EvCallM o n d) (log s) ->
  (forall f, ~ In (EvCallB f n (Some o)) (log s)) /\ (forall f, ~ In (EvImm f n o) (log s)).
Proof.
  intros Hp s GL d HM.
  assert (R : reachable src_cfg w scanned s) by (exists ls; reflexivity).
  destruct (@NB_reachable src_cfg w Hp n o scanned s R GL) as (_ & _ & N5 & N4).
  split; intros f H.
  - apply N5; left; [exists (EvCallM o n d)|exists (EvCallB f n (Some o))]; (split; [assumption|]); simpl;
      rewrite !Nat.eqb_refl; reflexivity.
  - apply N4 in H.
    destruct (IM_reachable (c := src_cfg) (w := w) Hp o R) as [(_ & _ & C & _) _].
    assert (Z : 0 < nM o (log s)) by (apply nM_calledM; eauto).
    destruct (in_dec Nat.eq_dec o (popped s)) as [IP|NIP].
    + exact (@popped_glue src_cfg w scanned s Hp R o IP H).
    + specialize (C NIP). lia.
Qed.

(* the hypothesis is met by a history with both kinds on offer, and by one registered after import *)
Definition nb_hist := [LEnv (EReg 0); LEnv (EIR (IIns 0 0)); LEnv (EIR (IIns 1 1)); LEnv (EReg 1);
                       LThr 0; LThr 0; LThr 0; LThr 0; LThr 0; LThr 0; LThr 0; LThr 0].
Definition nb_world := mkworld 1 [OMod (Some (mkfn BOk [])); OMod None] [mkfn BOk []; mkfn BOk []].
Example never_both_hyp_met :
  let s := run src_cfg nb_world nb_hist (init nb_world true) in
  g_late s = false /\ In (EvCallM 0 0 (Some 0)) (log s) /\ In (EvImm 1 1 1) (log s).
Proof. vm_compute. repeat split; auto. Qed.

Definition scan_of (p : pc) : option (list nat * nat) :=
  match p with
  | PScan todo k => Some (todo, k)
  | PCall _ _ _ _ todo k => Some (todo, k)
  | _ => None
  end.
Definition sub_ok (S M : list (nat * nat)) : Prop := forall a b, In (a, b) S -> m_get M a = Some b.

Section Invariant.
Variable c : cfg.
Variable w : world.
Hypothesis Hpop : c_pop c = true.
Hypothesis Hlock : c_locked c = true.

(* L: the lock protects the region; K: the scan in progress (its snapshot is still part of
   sys.modules, every name it has passed is served); A: the same for the snapshot the cache
   value stems from; D: the tables have no duplicate keys. *)
Record GI (s : st) : Prop := mkGI {
  gi_L1 : forall t, in_region (thr s t) = true -> lock s = Some t;
  gi_K1 : forall t todo k, scan_of (thr s t) = Some (todo, k) -> k = w_base w + length (g_snap_scan s);
  gi_K2 : g_since_snap s = false -> sub_ok (g_snap_scan s) (mods s);
  gi_K3 : g_since_snap s = false -> forall t todo k, scan_of (thr s t) = Some (todo, k) ->
          forall a b, In (a, b) (g_snap_scan s) -> In a todo \/ settled w s b;
  gi_K4 : NoDup (map fst (g_snap_scan s));
  gi_A1 : g_since_cache s = false -> cache s = 0 \/ cache s = w_base w + length (g_snap_cache s);
  gi_A2 : g_since_cache s = false -> sub_ok (g_snap_cache s) (mods s);
  gi_A3 : g_since_cache s = false -> forall a b, In (a, b) (g_snap_cache s) -> settled w s b;
  gi_A4 : NoDup (map fst (g_snap_cache s));
  gi_D1 : NoDup (map fst (mods s))
}.

Lemma region_scan p : in_region p = false -> scan_of p = None.
Proof. destruct p; simpl; try reflexivity; discriminate. Qed.
Lemma scan_region p x : scan_of p = Some x -> in_region p = true.
Proof. destruct p; simpl; try reflexivity; discriminate. Qed.

Lemma region_unique s t1 t2 :
  GI s -> in_region (thr s t1) = true -> in_region (thr s t2) = true -> t1 = t2.
Proof. intros G H1 H2. apply (gi_L1 G) in H1. apply (gi_L1 G) in H2. congruence. Qed.

Lemma scan_upd s t p' t' x :
  GI s -> in_region (thr s t) = true -> scan_of (upd (thr s) t p' t') = Some x -> t' = t /\ scan_of p' = Some x.
Proof.
  intros G R H. unfold upd in H. destruct (Nat.eqb_spec t' t) as [->|NE]; [auto|].
  elim NE. apply (region_unique t' t G); [eapply scan_region; exact H|exact R].
Qed.

(* sys.modules operations, together with a move of threads after which the lock still protects
   the region and no thread has come to scan *)
Lemma GI_frame l s pd lk th lg nr gs lt :
  GI s ->
  (forall t, in_region (th t) = true -> lk = Some t) ->
  (forall t x, scan_of (th t) = Some x -> scan_of (thr s t) = Some x) ->
  GI (frame_state s l (popped s) pd lk th lg nr gs lt).
Proof.
  intros [L1 K1 K2 K3 K4 A1 A2 A3 A4 D1] L S. destruct (irs_flags l s) as [FA FB].
  destruct (irs_view l s) as [ND V].
  assert (KM : g_since_cache (apply_irs l s) = false \/ g_since_snap (apply_irs l s) = false ->
               forall a b, m_get (mods s) a = Some b -> m_get (mods (apply_irs l s)) a = Some b).
  { destruct V as [(_ & _ & _ & KM & _)|(_ & A & B)]; [intros _; exact KM|rewrite A, B; intros [F|F]; discriminate]. }
  constructor; simpl.
  - exact L.
  - intros t todo k H. exact (K1 t todo k (S _ _ H)).
  - intros F a b I. apply KM; [right; exact F|]. exact (K2 (FB F) a b I).
  - intros F t todo k H. exact (K3 (FB F) t todo k (S _ _ H)).
  - exact K4.
  - intros F. exact (A1 (FA F)).
  - intros F a b I. apply KM; [left; exact F|]. exact (A2 (FA F) a b I).
  - intros F. exact (A3 (FA F)).
  - exact A4.
  - exact (ND D1).
Qed.

Lemma visit_pc_scan s nm todo k :
  scan_of (visit_pc w s nm todo k) = Some (todo, k) /\ in_region (visit_pc w s nm todo k) = true.
Proof. unfold visit_pc. destruct (some_or _ _); split; reflexivity. Qed.

Lemma GI_visit t nm todo k s :
  GI s -> thr s t = PScan (nm :: todo) k -> GI (visit c w t nm todo k s).
Proof.
  intros G E. pose proof G as [L1 K1 K2 K3 K4 A1 A2 A3 A4 D1]. rewrite visit_eq by exact Hpop.
  destruct (visit_pc_scan s nm todo k) as [VS VR].
  assert (R : in_region (thr s t) = true) by (rewrite E; reflexivity).
  assert (MONO : forall b, settled w s b ->
            glue_of w b = None \/ In b (match visit_mf w s nm with Some o => o :: popped s | None => popped s end)).
  { intros b [H|H]; [left; exact H|right]. destruct (visit_mf w s nm); [right|]; exact H. }
  constructor; unfold settled; simpl; auto.
  - intros t' H. unfold upd in H. destruct (Nat.eqb_spec t' t); [subst|]; auto.
  - intros t' todo' k' H. destruct (scan_upd _ _ _ G R H) as [_ H']. rewrite VS in H'. inversion H'; subst.
    eapply K1. rewrite E. reflexivity.
  - intros F t' todo' k' H a b I. destruct (scan_upd _ _ _ G R H) as [_ H']. rewrite VS in H'. inversion H'; subst todo' k'.
    destruct (K3 F t (nm :: todo) k) with (a := a) (b := b) as [[X|X]|X]; try (rewrite E; reflexivity); auto.
    (* the name just visited *)
    subst a. right. specialize (K2 F _ _ I).
    destruct (visit_mf w s nm) as [o'|] eqn:V.
    + destruct (visit_mf_some _ _ _ V) as (M1 & _ & _). rewrite K2 in M1. inversion M1; subst.
      right. left. reflexivity.
    + eapply visit_mf_none; eassumption.
  - intros F a b I. apply MONO. eauto.
Qed.

Lemma GI_tstep t s : GI s -> GI (tstep c w t s).
Proof.
  intros G.
  destruct (tstep_cases c w t s) as [p' th post gs R R' TH _ _ _|E LN|E|k E|nm todo k E|nm mf bf cur todo k l post p' E PP].
  - pose proof (upd_false in_region _ _ _ _ TH R') as OUT.
    apply GI_frame; [exact G| |].
    + intros t' H. apply (gi_L1 G), (OUT t' H).
    + intros t' x H. destruct (OUT t' (scan_region _ H)) as [_ NE]. rewrite TH, upd_other in H by exact NE. exact H.
  - (* acquire: nobody is in the region *)
    rewrite Hlock. apply GI_frame; [exact G| |]; unfold upd.
    + intros t' H. destruct (Nat.eqb_spec t' t); [subst; reflexivity|].
      apply (gi_L1 G) in H. rewrite LN in H; [discriminate|exact Hlock].
    + intros t' x H. destruct (Nat.eqb_spec t' t); [discriminate|exact H].
  - assert (R : in_region (thr s t) = true) by (rewrite E; reflexivity).
    pose proof G as [L1 K1 K2 K3 K4 A1 A2 A3 A4 D1].
    constructor; simpl; auto.
    + intros t' H. unfold upd in H. destruct (Nat.eqb_spec t' t); [subst|]; auto.
    + intros t' todo k H. destruct (scan_upd _ _ _ G R H) as [_ H']. inversion H'; reflexivity.
    + intros _ a b I. apply In_m_get; assumption.
    + intros _ t' todo k H a b I. destruct (scan_upd _ _ _ G R H) as [_ H']. inversion H'; subst.
      left. change a with (fst (a, b)). apply in_map. exact I.
  - (* write the cache, release, return *)
    assert (R : in_region (thr s t) = true) by (rewrite E; reflexivity).
    pose proof G as [L1 K1 K2 K3 K4 A1 A2 A3 A4 D1].
    assert (KK : k = w_base w + length (g_snap_scan s)) by (eapply K1; rewrite E; reflexivity).
    constructor; simpl; unfold settled; simpl; auto.
    + intros t' H. unfold upd in H. destruct (Nat.eqb_spec t' t); [discriminate|].
      elim n. exact (region_unique t' t G H R).
    + intros t' todo k' H. destruct (scan_upd _ _ _ G R H) as [_ H']. discriminate.
    + intros X t' todo k' H. destruct (scan_upd _ _ _ G R H) as [_ H']. discriminate.
    + intros X a0 b0 I. destruct (K3 X t [] k) with (a := a0) (b := b0) as [[]|Y]; auto. rewrite E; reflexivity.
  - apply GI_visit; assumption.
  - assert (R : in_region (thr s t) = true) by (rewrite E; reflexivity).
    apply GI_frame; [exact G| |]; unfold upd.
    + intros t1 H. destruct (Nat.eqb_spec t1 t) as [EQ|NE]; [subst t1|elim NE; exact (region_unique t1 t G H R)].
      destruct PP as [[-> _]|[-> _]]; [exact (gi_L1 G t R)|discriminate].
    + intros t1 x H. destruct (Nat.eqb_spec t1 t) as [EQ|NE]; [subst t1|exact H].
      rewrite E. destruct PP as [[-> _]|[-> _]]; [exact H|discriminate].
Qed.

Lemma GI_reachable scanned s : reachable c w scanned s -> GI s.
Proof.
  apply reachable_ind with (P := GI).
  - constructor; simpl; try discriminate; try (intros _ a b []); try apply NoDup_nil.
    intros _. destruct scanned; [right; lia|left; reflexivity].
  - intros s0 [e|t] _ H; [|apply GI_tstep; exact H]. simpl.
    destruct (env_cases w e s0) as (l & evs & pd & nr & lt & _ & ->).
    apply GI_frame; [exact H|exact (gi_L1 H)|auto].
Qed.
End Invariant.

(* What several invariants assert of a window in which nothing is removed from sys.modules:
   B holds as long as the removal count still has its value at the start of the window. *)
Definition window (nrem0 : nat) (B : st -> Prop) (s : st) : Prop :=
  nrem0 <= g_nrem s /\ (g_nrem s = nrem0 -> B s).

Lemma window_step nrem0 (B : st -> Prop) s s' :
  g_nrem s <= g_nrem s' -> (g_nrem s' = g_nrem s -> g_nrem s = nrem0 -> B s -> B s') ->
  window nrem0 B s -> window nrem0 B s'.
Proof. intros LE ST [N0 H]. split; [lia|]. intros E. apply ST; [lia|lia|apply H; lia]. Qed.

Lemma step_nrem c w l s : g_nrem s <= g_nrem (step c w l s).
Proof.
  destruct l as [e|t]; simpl.
  - destruct (env_cases w e s) as (l & evs & pd & nr & lt & _ & ->). apply irs_nrem.
  - destruct (body_cases c w t s) as [s' l p' post ST|nm todo k E]; [rewrite (st_nrem ST); apply irs_nrem|apply le_n].
Qed.

Lemma step_log c w l s : exists evs, log (step c w l s) = evs ++ log s.
Proof.
  destruct l as [e|t]; simpl.
  - destruct (env_cases w e s) as (l & evs & pd & nr & lt & _ & ->). exists evs. reflexivity.
  - destruct (body_cases c w t s) as [s' l p' post ST|nm todo k E].
    + exists (post ++ pre_of (thr s t)). rewrite (st_log ST). apply app_assoc.
    + exists []. reflexivity.
Qed.

Lemma pigeon (S M : list (nat * nat)) n o :
  NoDup (map fst S) -> sub_ok S M -> ~ In n (map fst S) -> m_get M n = Some o -> length S < length M.
Proof.
  intros ND SO NI MG.
  assert (INC : incl (n :: map fst S) (map fst M)).
  { intros a [<-|H].
    - change n with (fst (n, o)). apply in_map. apply m_get_In. exact MG.
    - apply in_map_iff in H. destruct H as [[a' b] [<- H]]. simpl.
      change a' with (fst (a', b)). apply in_map. apply m_get_In. apply SO. exact H. }
  assert (ND2 : NoDup (n :: map fst S)) by (constructor; assumption).
  pose proof (NoDup_incl_length ND2 INC) as LE. simpl in LE. rewrite !map_length in LE. lia.
Qed.

Lemma In_fst_ex (S : list (nat * nat)) n : In n (map fst S) -> exists b, In (n, b) S.
Proof.
  intros H. apply in_map_iff in H. destruct H as [[a b] [<- H]]. exists b. exact H.
Qed.

(* The argument is the same for module-provided and built-in glue; [called l] says that the
   glue in question has been called in the log l. *)
Section Timely.
Variable c : cfg.
Variable w : world.
Hypothesis Hpop : c_pop c = true.
Hypothesis Hlock : c_locked c = true.
Variables t n o : nat.
Variable called : list event -> Prop.
Hypothesis called_ext : forall evs l, called l -> called (evs ++ l).
Variable m1 : nat.
Variable log1 : list event.

(* Since the start of the window (m1 modules, log log1) module o has stayed under n and its glue
   has not been called: the cache is below the length of the module table, a snapshot taken since
   contains (n, o) or is older and shorter, a length read by t is too large for the fast path,
   and t has not returned. *)
Record QB (s : st) : Prop := mkQB {
  qb_cache_clean : g_since_cache s = false;
  qb_snap_clean : g_since_snap s = false;
  qb_there : m_get (mods s) n = Some o;
  qb_len : m1 <= length (mods s);
  qb_log : exists new, log s = new ++ log1 /\ ~ In (EvRet t true) new;
  qb_cache : cache s < w_base w + m1;
  qb_snap : In (n, o) (g_snap_scan s) \/ length (g_snap_scan s) < m1;
  qb_read : forall l, thr s t = PRead l -> w_base w + m1 <= l;
  qb_scan : forall x, scan_of (thr s t) = Some x -> In (n, o) (g_snap_scan s)
}.

(* a thread about to write the cache has served every module of its snapshot *)
Definition WC (s : st) : Prop :=
  forall t0 k, thr s t0 = PScan [] k -> g_since_snap s = false -> In (n, o) (g_snap_scan s) -> called (log s).

(* frame steps without a removal; t0 moves to p' (an environment step: from where it is to where
   it is) *)
Lemma QB_move s l po pd lk th evs nr gs lt t0 p' :
  QB s -> g_nrem (apply_irs l s) = g_nrem s ->
  (forall t', th t' = upd (thr s) t0 p' t') ->
  ~ In (EvRet t true) evs ->
  (forall l, p' = PRead l -> thr s t0 = PRead l \/ w_base w + m1 <= l) ->
  (forall x, scan_of p' = Some x -> exists y, scan_of (thr s t0) = Some y) ->
  QB (frame_state s l po pd lk th (evs ++ log s) nr gs lt).
Proof.
  intros [F1 F2 MG LE (new & LN & NR) CL SN RD SC] NRM T E1 E2 E3.
  destruct (proj2 (irs_nrem l s) NRM) as (K1 & K2 & K3 & K4).
  constructor; simpl; auto; [congruence|congruence|lia| | |].
  - exists (evs ++ new). split; [rewrite LN; apply app_assoc|].
    intros X. apply in_app_or in X. destruct X as [X|X]; [exact (E1 X)|exact (NR X)].
  - intros l' X. rewrite T in X. unfold upd in X.
    destruct (Nat.eqb_spec t t0) as [->|NE]; [|auto]. destruct (E2 l' X) as [Y|Y]; auto.
  - intros x X. rewrite T in X. unfold upd in X.
    destruct (Nat.eqb_spec t t0) as [->|NE]; [|eauto]. destruct (E3 x X) as [y Y]. eauto.
Qed.

Definition Q (nrem0 : nat) : st -> Prop := window nrem0 (fun s => called (log s) \/ QB s).

Lemma Q_env nrem0 e s : Q nrem0 s -> Q nrem0 (apply_env w e s).
Proof.
  apply window_step; [apply (step_nrem c w (LEnv e))|]. intros NR _ H. revert NR.
  destruct (env_cases w e s) as (l & evs & pd & nr & lt & EC & ->). intros NR.
  destruct H as [C|H]; [left; apply called_ext, C|right].
  apply QB_move with (t0 := t) (p' := thr s t); auto using upd_id.
  - intros X. apply (env_case_quiet EC) in X. discriminate.
  - eauto.
Qed.

Lemma Q_tstep nrem0 t0 s : GI w s -> (g_nrem s = nrem0 -> WC s) -> Q nrem0 s -> Q nrem0 (tstep c w t0 s).
Proof.
  intros G WC0. apply window_step; [apply (step_nrem c w (LThr t0))|]. intros NR N0 H. simpl in NR. revert NR.
  pose proof (WC0 N0) as WCs. clear WC0 N0.
  destruct H as [C|H].
  { intros _. left. destruct (step_log c w (LThr t0) s) as [evs L]. simpl in L. rewrite L. apply called_ext, C. }
  destruct (tstep_cases c w t0 s) as [p' th post gs R R' TH RD FAST _|E _|E|k E|nm todo k E|nm mf bf cur todo k l post p' E PP];
    intros NR.
  - right. apply QB_move with (t0 := t0) (p' := p'); auto.
    + (* the fast path is closed to t, whose length exceeds the cache *)
      intros X. destruct FAST as [->|[-> E]]; [destruct X|]. destruct X as [X|[]]. inversion X; subst t0.
      pose proof (qb_read H E). pose proof (qb_cache H). lia.
    + (* a length read now counts the module under n *)
      intros l X. right. rewrite (RD l X). pose proof (qb_len H). lia.
    + intros x X. rewrite region_scan in X by exact R'. discriminate.
  - right. apply QB_move with (t0 := t0) (p' := PLocked) (evs := []); auto; discriminate.
  - (* snapshot: it contains (n, o) *)
    destruct H as [F1 F2 MG LE LN CL SN RD SC]. right. constructor; simpl; auto.
    + left. apply m_get_In. exact MG.
    + intros l X. unfold upd in X. destruct (t =? t0); [discriminate|auto].
    + intros x _. apply m_get_In. exact MG.
  - (* write the cache: a snapshot with (n, o), as t's is, is written only after the call; an older one is short *)
    assert (K1 : k = w_base w + length (g_snap_scan s)) by (eapply (@gi_K1 w s G t0 [] k); rewrite E; reflexivity).
    destruct H as [F1 F2 MG LE (new & LN & NRT) CL SN RD SC].
    assert (CALLED : In (n, o) (g_snap_scan s) -> called (EvRet t0 true :: log s))
      by (intros I; apply (called_ext [_]); exact (WCs t0 k E F2 I)).
    destruct SN as [I|LT]; [left; auto|].
    destruct (Nat.eq_dec t0 t) as [->|NE]; [left; apply CALLED, (SC ([], k)); rewrite E; reflexivity|right].
    constructor; simpl; auto; try lia.
    + exists (EvRet t0 true :: new). split; [rewrite LN; reflexivity|]. intros [X|X]; [inversion X; congruence|auto].
    + intros l X. rewrite upd_other in X by auto. auto.
    + intros x X. rewrite upd_other in X by auto. eauto.
  - clear NR. rewrite visit_eq by exact Hpop. right.
    apply QB_move with (t0 := t0) (p' := visit_pc w s nm todo k) (evs := []); auto.
    + intros l X. unfold visit_pc in X. destruct (some_or _ _); discriminate.
    + intros x _. rewrite E. simpl. eauto.
  - right. rewrite app_assoc. apply QB_move with (t0 := t0) (p' := p'); auto.
    + intros X. apply in_app_or in X. destruct X as [X|X].
      * destruct PP as [[_ [->|[b ->]]]|[_ ->]]; [destruct X| |]; destruct X as [X|[]]; discriminate.
      * apply (pre_MB (PCall nm mf bf cur todo k)) in X. discriminate.
    + intros l' X. destruct PP as [[-> _]|[-> _]]; discriminate.
    + intros x _. rewrite E. simpl. eauto.
Qed.

(* The whole argument.  B is what else has to be tracked through the window to know that a thread
   about to write the cache has called. *)
Lemma timely_window scanned ls1 ls2 (B : st -> Prop) :
  let s1 := run c w ls1 (init w scanned) in
  log1 = log s1 -> m1 = length (mods s1) ->
  (thr s1 t = PIdle \/ exists b, thr s1 t = PDone b) ->
  m_get (mods s1) n = Some o -> g_since_cache s1 = false -> g_since_snap s1 = false ->
  ~ In n (map fst (g_snap_cache s1)) ->
  B s1 ->
  (forall s l, reachable c w scanned s -> window (g_nrem s1) B s -> window (g_nrem s1) B (step c w l s)) ->
  (forall s, reachable c w scanned s -> B s -> WC s) ->
  let s2 := run c w ls2 s1 in
  g_nrem s2 = g_nrem s1 -> forall new, log s2 = new ++ log1 -> In (EvRet t true) new -> called (log s2).
Proof.
  intros s1 L1 M1 IDLE MG F1 F2 NI B1 BS BW s2 NR new LG RET.
  assert (R1 : reachable c w scanned s1) by (exists ls1; reflexivity).
  assert (G1 := GI_reachable Hpop Hlock R1).
  assert (Q2 : Q (g_nrem s1) s2 /\ window (g_nrem s1) B s2).
  { unfold s2. apply run_ind with (scanned := scanned) (ls := ls2) (s1 := s1); [|exact R1|].
    - intros s l R [H HB]. split; [|apply BS; assumption].
      destruct l as [e|t0]; [apply Q_env; exact H|].
      apply Q_tstep; [exact (GI_reachable Hpop Hlock R)| |exact H].
      intros N0. apply BW; [exact R|exact (proj2 HB N0)].
    - (* the start: the snapshots that do not contain n are shorter than the module table *)
      split; [|split; [apply le_n|intros _; exact B1]].
      split; [apply le_n|]. intros _. right. constructor; rewrite ?L1, ?M1; auto.
      + exists []. split; [reflexivity|]. intros [].
      + destruct (gi_A1 G1 F1) as [Z|Z]; [rewrite Z; destruct (mods s1); [discriminate MG|simpl; lia]|]. rewrite Z.
        assert (length (g_snap_cache s1) < length (mods s1)); [|lia].
        eapply pigeon; [exact (gi_A4 G1)|exact (gi_A2 G1 F1)|exact NI|exact MG].
      + destruct (in_dec Nat.eq_dec n (map fst (g_snap_scan s1))) as [IN|NIN].
        * left. apply In_fst_ex in IN. destruct IN as [b H].
          assert (b = o) by (pose proof (gi_K2 G1 F2 _ _ H); congruence). subst. exact H.
        * right. eapply pigeon; [exact (gi_K4 G1)|exact (gi_K2 G1 F2)|exact NIN|exact MG].
      + intros l X. destruct IDLE as [Y|[b Y]]; rewrite Y in X; discriminate.
      + intros x X. destruct IDLE as [Y|[b Y]]; rewrite Y in X; discriminate. }
  (* the end: t has returned, which QB excludes *)
  destruct Q2 as [[_ Q2] _]. destruct (Q2 NR) as [C|H]; [exact C|].
  destruct (qb_log H) as (new' & LN & NRT).
  assert (new' = new) by (rewrite LG in LN; apply app_inv_tail in LN; congruence). subst new'.
  elim (NRT RET).
Qed.
End Timely.

(* for module glue this follows from GI and IM: o is popped, hence called or held, and the
   holder would be the writer itself *)
Lemma write_called w o s :
  glue_of w o <> None -> GI w s -> IM o s -> forall n, WC n o (fun l => 0 < nM o l) s.
Proof.
  intros HG G [_ IE] n t0 k E SS I.
  assert (SC : scan_of (thr s t0) = Some ([], k)) by (rewrite E; reflexivity).
  destruct (@gi_K3 w s G SS t0 [] k SC n o I) as [[]|[X|X]]; [contradiction|].
  destruct (IE X) as [Y|[t' Y]]; [lia|].
  exfalso. unfold inflightM in Y. destruct (thr s t') eqn:E'; try discriminate.
  assert (t' = t0) by (apply (region_unique t' t0 G); [rewrite E'|rewrite E]; reflexivity).
  subst. rewrite E in E'. discriminate.
Qed.

Theorem timely c (w : world) (scanned : bool) (ls1 ls2 : list label) (t n o : nat) :
  c_pop c = true -> c_locked c = true ->
  let s1 := run c w ls1 (init w scanned) in
  (thr s1 t = PIdle \/ exists b, thr s1 t = PDone b) ->
  pendingM w s1 n o -> g_since_cache s1 = false -> g_since_snap s1 = false ->
  let s2 := run c w ls2 s1 in
  g_nrem s2 = g_nrem s1 ->
  forall new, log s2 = new ++ log s1 -> In (EvRet t true) new -> calledM s2 o.
Proof.
  intros Hp Hl s1 IDLE (MG & GL & NP) F1 F2 s2 NR new LG RET.
  assert (R1 : reachable c w scanned s1) by (exists ls1; reflexivity).
  assert (G1 := @GI_reachable c w Hp Hl scanned s1 R1).
  apply nM_calledM.
  apply (@timely_window c w Hp Hl t n o (fun l => 0 < nM o l)) with (scanned := scanned) (B := fun _ => True)
    (m1 := length (mods s1)) (log1 := log s1) (new := new); auto.
  - intros evs l H. rewrite nM_app. lia.
  - (* o's glue is pending: n was not in the snapshot of the last completed scan *)
    intros H. apply In_fst_ex in H. destruct H as [b H].
    assert (b = o) by (pose proof (gi_A2 G1 F1 _ _ H); congruence). subst b.
    destruct (gi_A3 G1 F1 _ _ H) as [X|X]; [exact (GL X)|exact (NP X)].
  - intros s l _ [LE _]. pose proof (step_nrem c w l s). split; [lia|auto].
  - intros s R _. apply (@write_called w); [exact GL|exact (GI_reachable Hp Hl R)|exact (IM_reachable (c := c) (w := w) Hp o R)].
Qed.

(* the hypotheses of [timely] are met by a 3-thread, 4-module history: thread 0 has completed a
   scan of m0,m1; m2,m3 were imported afterwards; thread 1 is inside its scan, about to call m2's
   glue; thread 2 has not started; m3's glue is pending *)
Definition tm_world := mkworld 1 [OMod (Some (mkfn BOk [])); OMod (Some (mkfn BRaise [])); OMod (Some (mkfn BOk [])); OMod (Some (mkfn BOk []))] [].
Definition tm_hist :=
  [LEnv (EIR (IIns 0 0)); LEnv (EIR (IIns 1 1))] ++ repeat (LThr 0) 10 ++
  [LEnv (EIR (IIns 2 2)); LEnv (EIR (IIns 3 3))] ++ repeat (LThr 1) 8.
Example timely_hyp_met :
  let s1 := run src_cfg tm_world tm_hist (init tm_world true) in
  thr s1 0 = PDone true /\ is_pcall (thr s1 1) = true /\ thr s1 2 = PIdle
  /\ pendingM tm_world s1 3 3 /\ g_since_cache s1 = false /\ g_since_snap s1 = false.
Proof.
  vm_compute. repeat split; try discriminate. intros [H|[H|[H|[]]]]; discriminate.
Qed.

Lemma base_escapes c (w : world) (s : st) (t nm : nat) mf bf cur todo k fs mk :
  c_pop c = true -> c_locked c = true ->
  GI w s -> thr s t = PCall nm mf bf cur todo k ->
  selected w mf bf = Some (fs, mk) -> fbeh fs = BBase ->
  let s' := tstep c w t s in
  thr s' t = PDone false /\ lock s' = None /\ cache s' = cache s /\ pend s' = pend s
  /\ (exists ev, log s' = EvRet t false :: ev :: log s /\ is_call ev = true)
  /\ (forall t', t' <> t -> thr s' t' = thr s t')
  /\ GI w s'.
Proof.
  intros Hp Hl G E S B s'.
  assert (G' : GI w s') by (apply GI_tstep; assumption).
  assert (LK : lock s = Some t) by (apply (@gi_L1 w s G t); rewrite E; reflexivity).
  revert G'. unfold s', tstep. rewrite E.
  destruct (call_some c w t nm mf bf cur todo k s S) as (ev & _ & IC & ->).
  unfold finish, abort. rewrite B, release_eq, apply_irs_eta. simpl. rewrite LK. simpl.
  rewrite !Nat.eqb_refl. intros G'. do 4 (split; [reflexivity|]).
  split; [exists ev; split; [reflexivity|exact IC]|]. split; [|exact G'].
  intros t' NE. apply Nat.eqb_neq in NE. rewrite NE. reflexivity.
Qed.

Section PendInvariant.
Variable c : cfg.
Variable w : world.
Hypothesis Hpop : c_pop c = true.
Hypothesis Hlock : c_locked c = true.

(* no built-in is pending for a name that a scan has passed *)
Record GP (s : st) : Prop := mkGP {
  gp_K : g_since_snap s = false -> forall t todo k, scan_of (thr s t) = Some (todo, k) ->
         forall a b, In (a, b) (g_snap_scan s) -> In a todo \/ m_get (pend s) a = None;
  gp_A : g_since_cache s = false -> forall a b, In (a, b) (g_snap_cache s) -> m_get (pend s) a = None
}.

(* thread t changes pc, keeping its scan or leaving it; the flags may have been raised and
   entries may have left the pending table *)
Lemma GP_move s l po pd lk th lg nr gs lt t p' :
  GP s -> (forall a, m_get (pend s) a = None -> m_get pd a = None) ->
  (forall t', th t' = upd (thr s) t p' t') ->
  scan_of p' = scan_of (thr s t) \/ scan_of p' = None -> GP (frame_state s l po pd lk th lg nr gs lt).
Proof.
  intros [K A] P T SC. destruct (irs_flags l s) as [F1 F2]. constructor; simpl.
  - intros F t' todo k H a b I. rewrite T in H. unfold upd in H.
    assert (H' : scan_of (thr s t') = Some (todo, k)).
    { destruct (Nat.eqb_spec t' t); [|exact H]. subst. destruct SC as [SC|SC]; rewrite SC in H; [exact H|discriminate]. }
    destruct (K (F2 F) t' todo k H' a b I); auto.
  - intros F a b I. eauto.
Qed.

Lemma GP_env e s : GI w s -> GP s -> GP (apply_env w e s).
Proof.
  intros G H. destruct (env_cases w e s) as (l & evs & pd & nr & lt & EC & ->).
  destruct (irs_flags l s) as [FA FB].
  assert (PD : pd = pend s \/ exists n, pd = pend s ++ [(n, nreg s)] /\ m_get (mods s) n = None)
    by (destruct EC; eauto).
  destruct PD as [->|(n & -> & MO)].
  - apply GP_move with (t := 0) (p' := thr s 0); auto using upd_id.
  - (* a new pending entry for a name that is not imported, hence in no live snapshot *)
    destruct H as [K A]. constructor; simpl.
    + intros F t todo k SC a b I. apply FB in F. destruct (K F t todo k SC a b I) as [X|X]; [left; exact X|right].
      rewrite m_get_app_other; [exact X|]. intros ->. rewrite (gi_K2 G F _ _ I) in MO. discriminate.
    + intros F a b I. apply FA in F. rewrite m_get_app_other; [exact (A F a b I)|].
      intros ->. rewrite (gi_A2 G F _ _ I) in MO. discriminate.
Qed.

Lemma GP_tstep t s : GI w s -> GP s -> GP (tstep c w t s).
Proof.
  intros G H.
  destruct (tstep_cases c w t s) as [p' th post gs _ R' TH _ _ _|E _|E|k E|nm todo k E|nm mf bf cur todo k l post p' E PP].
  - apply GP_move with (t := t) (p' := p'); auto using region_scan.
  - apply GP_move with (t := t) (p' := PLocked); auto.
  - assert (R : in_region (thr s t) = true) by (rewrite E; reflexivity).
    destruct H as [K A]. constructor; simpl; auto.
    intros _ t' todo k SC a b I. destruct (scan_upd _ _ _ G R SC) as [_ SC']. inversion SC'; subst.
    left. change a with (fst (a, b)). apply in_map. exact I.
  - assert (R : in_region (thr s t) = true) by (rewrite E; reflexivity).
    destruct H as [K A]. constructor; simpl.
    + intros F t' todo' k' SC. destruct (scan_upd _ _ _ G R SC) as [_ SC']. discriminate.
    + intros F a0 b0 I. destruct (K F t [] k) with (a := a0) (b := b0) as [[]|X]; auto. rewrite E. reflexivity.
  - assert (R : in_region (thr s t) = true) by (rewrite E; reflexivity).
    rewrite visit_eq by exact Hpop. destruct H as [K A]. constructor; simpl.
    + intros F t' todo' k' H a b I. destruct (scan_upd _ _ _ G R H) as [_ H'].
      destruct (visit_pc_scan w s nm todo k) as [VS _]. rewrite VS in H'. inversion H'; subst todo' k'.
      destruct (K F t (nm :: todo) k) with (a := a) (b := b) as [[X|X]|X]; auto; try (rewrite E; reflexivity).
      * subst. right. rewrite m_get_del, Nat.eqb_refl. reflexivity.
      * right. apply m_get_del_none. exact X.
    + intros F a b I. apply m_get_del_none. eauto.
  - apply GP_move with (t := t) (p' := p'); auto.
    rewrite E. destruct PP as [[-> _]|[-> _]]; auto.
Qed.

Lemma GP_reachable scanned s : reachable c w scanned s -> GP s.
Proof.
  apply reachable_ind with (P := GP).
  - constructor; simpl; [intros _ t todo k H; discriminate|intros _ a b []].
  - intros s0 l R H. assert (G := @GI_reachable c w Hpop Hlock scanned s0 R).
    destruct l; [apply GP_env|apply GP_tstep]; assumption.
Qed.
End PendInvariant.

Lemma settled_visit_mf w s nm o : m_get (mods s) nm = Some o -> settled w s o -> visit_mf w s nm = None.
Proof.
  intros M [H|H]; unfold visit_mf; rewrite M.
  - rewrite H. reflexivity.
  - destruct (glue_of w o); [|reflexivity]. apply mem_nat_In in H. rewrite H. reflexivity.
Qed.

Section TrackB.
Variable c : cfg.
Variable w : world.
Hypothesis Hpop : c_pop c = true.
Variables n o f nrem0 : nat.

Definition holdsB (s : st) : Prop := exists t' cur todo k, thr s t' = PCall n None (Some f) cur todo k.

(* o stays under n with no glue of its own on offer; f is pending for n, held, or called *)
Definition TBb (s : st) : Prop :=
  m_get (mods s) n = Some o /\ settled w s o
  /\ (m_get (pend s) n = Some f \/ holdsB s \/ calledB s f).
Definition TB : st -> Prop := window nrem0 TBb.

Lemma TB_env e s : TB s -> TB (apply_env w e s).
Proof.
  apply window_step; [apply (step_nrem c w (LEnv e))|]. intros NR _ (MG & ST & D). revert NR.
  destruct (env_cases w e s) as (l & evs & pd & nr & lt & EC & ->). intros NR.
  destruct (proj2 (irs_nrem l s) NR) as (_ & _ & KM & _).
  split; [apply KM; exact MG|split; [exact ST|]].
  destruct D as [D|[D|(a & d & X)]]; [left|right; left; exact D|right; right].
  - destruct EC; auto. simpl. rewrite m_get_app_other; [exact D|congruence].
  - exists a, d. simpl. apply in_or_app. right. exact X.
Qed.

Lemma TB_tstep t0 s : TB s -> TB (tstep c w t0 s).
Proof.
  apply window_step; [apply (step_nrem c w (LThr t0))|]. simpl. intros NR _ (MG & ST & D). revert NR.
  destruct (body_cases c w t0 s) as [s' l p' post SY|nm todo k E].
  - (* t0 moves to a pc that holds nothing: if it held f it has called it *)
    rewrite (st_nrem SY). intros NR. destruct (proj2 (irs_nrem l s) NR) as (_ & _ & KM & _).
    unfold TBb, settled, calledB. rewrite (st_mods SY), (st_popped SY), (st_pend SY), (st_log SY).
    split; [apply KM; exact MG|split; [exact ST|]].
    destruct D as [D|[(t' & cur' & todo' & k' & D)|(a & d & X)]]; [left; exact D| |right; right].
    + destruct (Nat.eq_dec t' t0) as [->|NE].
      * right. right. rewrite D. exists n, cur'. apply in_or_app. right. left. reflexivity.
      * right. left. exists t', cur', todo', k'. rewrite (st_thr SY), upd_other by exact NE. exact D.
    + exists a, d. apply in_or_app. right. apply in_or_app. right. exact X.
  - (* visit: if it is the visit of n it pops f *)
    rewrite visit_eq by exact Hpop. intros _. split; [exact MG|split].
    + destruct ST as [X|X]; [left; exact X|right]. simpl. destruct (visit_mf w s nm); [right|]; exact X.
    + destruct D as [D|[(t' & cur' & todo' & k' & D)|D]]; [|right; left|right; right; exact D].
      * destruct (Nat.eq_dec nm n) as [->|NE].
        -- right. left. exists t0, (m_get (mods s) n), todo, k. simpl. rewrite upd_same.
           unfold visit_pc. rewrite (@settled_visit_mf w s n o MG ST), D. reflexivity.
        -- left. simpl. rewrite m_get_del. apply Nat.eqb_neq in NE. rewrite NE. exact D.
      * exists t', cur', todo', k'. simpl.
        destruct (Nat.eq_dec t' t0) as [->|NE]; [rewrite E in D; discriminate|].
        rewrite upd_other by exact NE. exact D.
Qed.
End TrackB.

(* a thread about to write has passed n: f is no longer pending, nor held by the writer *)
Lemma write_calledB w n o f s :
  GI w s -> GP s -> TBb w n o f s -> WC n o (fun l => exists n d, In (EvCallB f n d) l) s.
Proof.
  intros G P (_ & _ & D) t1 k E FS I.
  assert (SC : scan_of (thr s t1) = Some ([], k)) by (rewrite E; reflexivity).
  destruct (gp_K P FS _ SC _ _ I) as [[]|PN].
  destruct D as [D|[(t' & cur & todo & k' & D)|D]]; [congruence| |exact D].
  assert (t' = t1) by (apply (region_unique t' t1 G); [rewrite D|rewrite E]; reflexivity).
  subst. rewrite E in D. discriminate.
Qed.

Theorem timely_builtin c (w : world) (scanned : bool) (ls1 ls2 : list label) (t n f : nat) :
  c_pop c = true -> c_locked c = true ->
  let s1 := run c w ls1 (init w scanned) in
  (thr s1 t = PIdle \/ exists b, thr s1 t = PDone b) ->
  pendingB w s1 n f -> g_since_cache s1 = false -> g_since_snap s1 = false ->
  let s2 := run c w ls2 s1 in
  g_nrem s2 = g_nrem s1 ->
  forall new, log s2 = new ++ log s1 -> In (EvRet t true) new -> calledB s2 f.
Proof.
  intros Hp Hl s1 IDLE ((o & MG & ST) & PD) F1 F2 s2 NR new LG RET.
  assert (R1 : reachable c w scanned s1) by (exists ls1; reflexivity).
  assert (P1 := @GP_reachable c w Hp Hl scanned s1 R1).
  apply (@timely_window c w Hp Hl t n o (fun l => exists n d, In (EvCallB f n d) l)) with (scanned := scanned) (B := TBb w n o f)
    (m1 := length (mods s1)) (log1 := log s1) (new := new); auto.
  - intros evs l (a & d & H). exists a, d. apply in_or_app. right. exact H.
  - (* f is pending for n: n was not in the snapshot of the last completed scan *)
    intros H. apply In_fst_ex in H. destruct H as [b H].
    rewrite (gp_A P1 F1 _ _ H) in PD. discriminate.
  - split; [exact MG|split; [exact ST|left; exact PD]].
  - intros s [e|t0] _; [apply (TB_env c)|apply TB_tstep]; exact Hp.
  - intros s R. apply write_calledB; [exact (GI_reachable Hp Hl R)|exact (GP_reachable Hp Hl R)].
Qed.

Definition tb_world := mkworld 1 [OMod None; OMod (Some (mkfn BOk []))] [mkfn BOk []].
Definition tb_hist :=
  [LEnv (EReg 0); LEnv (EIR (IIns 1 1))] ++ repeat (LThr 0) 8 ++ [LEnv (EIR (IIns 0 0))] ++ repeat (LThr 1) 4.
Example timely_builtin_hyp_met :
  let s1 := run src_cfg tb_world tb_hist (init tb_world true) in
  thr s1 0 = PDone true /\ thr s1 1 = PLocked /\ thr s1 2 = PIdle
  /\ pendingB tb_world s1 0 0 /\ g_since_cache s1 = false /\ g_since_snap s1 = false /\ g_late s1 = false.
Proof.
  vm_compute. repeat split; auto. exists 0. split; [reflexivity|left; reflexivity].
Qed.

Lemma odd_entry_no_glue w o : obj_of w o = ONoDict -> glue_of w o = None.
Proof. unfold glue_of. intros ->. reflexivity. Qed.

(* a scan over [module; odd+built-in; odd; module-with-raising-glue; odd+raising built-in; module] *)
Definition odd_world := mkworld 1
  [OMod (Some (mkfn BOk [])); ONoDict; ONoDict; OMod (Some (mkfn BRaise [])); ONoDict; OMod (Some (mkfn BOk []))]
  [mkfn BOk []; mkfn BRaise []].
Definition odd_hist :=
  [CEnv (EReg 1); CEnv (EReg 4); CEnv (EIR (IIns 0 0)); CEnv (EIR (IIns 1 1)); CEnv (EIR (IIns 2 2));
   CEnv (EIR (IIns 3 3)); CEnv (EIR (IIns 4 4)); CEnv (EIR (IIns 5 5)); CFull 0].
Example odd_entries_are_skipped :
  let r := crun src_cfg odd_world odd_hist (init odd_world true) in
  map erase (rev (log (fst r))) =
    [OCallM 0 0; OCallB 0 1; OCallM 3 3; OWarn true 3; OCallB 1 4; OWarn false 4; OCallM 5 5; ORet 0 true]
  /\ pend (fst r) = [] /\ cache (fst r) = 7.
Proof. vm_compute. repeat split. Qed.
