(* C07 — thread stacks: exact when blocked, safe when racing.
   Models: M_Snapshot.v (inspect_frame's snapshot/retry protocol against an adversarial target),
   M_ThreadLife.v (unwrap_thread's three reads interleaved with the thread's life cycle).
   `the_cfg` instantiates the protocol model on the constants and structural facts regenerated
   from /repo (SrcFacts): retry bound, header re-check adjacent to the stacktop/owner reads,
   slot re-check adjacent to every slot read, no call between pointer capture and header re-check. *)
Require Import Base M_Snapshot M_ThreadLife M_Snapshot310 P_Snapshot.
From SS.gen Require Import SrcFacts.
From Coq Require Permutation.

(* For ALL schedules (env: attempt -> switch point -> move), ALL target behaviours that respect the
   environment assumptions (wf_env: depth is a function of lasti, handler depth is safe, returning
   changes lasti) and ALL garbage a dangling read might return: a returned snapshot (L, st) is
   backed by reads rs that were each taken while f_lasti = L through a live pointer inside the valid
   stack and returned the slot's content, st has the length valid for L; otherwise the attempt is
   rejected, AssertionError never escapes, and RuntimeError comes after exactly 10 rejections. *)
Theorem C07_snapshot_consistent_or_rejected : forall t ssize rl d env garb w,
  wf_env (the_cfg t ssize rl) d env -> wf_world (the_cfg t ssize rl) d w ->
  forall o g w', run (the_cfg t ssize rl) env garb w = (o, g, w') ->
  match o with
  | OOk L st => lasti (cur w') = L /\ nretry g < 10 /\
                exists pre rs, reads g = pre ++ rs /\ consistent_snapshot (the_cfg t ssize rl) d L st rs
  | OAssert => False
  | ORuntime => nretry g = 10
  end.
Proof.
  intros t ssize rl d env garb w He Hw o g w' Hrun.
  destruct (run_spec _ d env garb w o g w' (the_flags t ssize rl) He Hw Hrun) as (_ & _ & H).
  destruct o; [|exact H|exact (proj1 H)]. destruct H as (_ & H3 & H4 & H5). auto.
Qed.
Print Assumptions C07_snapshot_consistent_or_rejected.

(* EXACT WHEN BLOCKED: for a target that never moves (all switch points Stay), for ALL positions and
   stacks satisfying the environment assumptions: the first attempt is accepted (0 retries, exactly
   len reads) and the snapshot is the target's value stack -- the whole stack (depth(L) slots) if the
   frame is suspended in a call (stacktop saved), its prefix at the enclosing handler's depth if the
   frame is executing (stacktop -1). Example of the hypothesis: P_Snapshot.ex_blocked_hyp. *)
Theorem C07_blocked_exact : forall t ssize rl d garb s,
  wf_state (the_cfg t ssize rl) d s ->
  let len := match top s with None => handler_depth t (lasti s) | Some n => n end in
  exists g, run (the_cfg t ssize rl) quiet garb (mkW s OnThread)
              = (OOk (lasti s) (firstn len (slots s)), g, mkW s OnThread)
            /\ nretry g = 0 /\ length (reads g) = len
            /\ (top s <> None -> firstn len (slots s) = slots s /\ len = d (lasti s)).
Proof.
  intros t ssize rl d garb s Hs.
  apply (first_attempt_exact _ d quiet garb s (the_flags t ssize rl)); [rewrite the_retries; lia|exact Hs|reflexivity].
Qed.
Print Assumptions C07_blocked_exact.

(* every raw slot read of the whole run (rejected attempts included) is live, in bounds and taken
   at lasti_before; no header read goes through a dangling pointer (finding F15) *)
Theorem C07_reads_in_bounds : forall t ssize rl d env garb w,
  wf_env (the_cfg t ssize rl) d env -> wf_world (the_cfg t ssize rl) d w ->
  forall o g w', run (the_cfg t ssize rl) env garb w = (o, g, w') ->
  Forall rd_ok (reads g) /\ stale_hdr g = 0.
Proof.
  intros t ssize rl d env garb w He Hw o g w' Hrun.
  destruct (run_spec _ d env garb w o g w' (the_flags t ssize rl) He Hw Hrun) as ((_ & A & B) & _). auto.
Qed.
Print Assumptions C07_reads_in_bounds.

(* ghost reference balance: +1 per slot read, -len per dropped list: net 0 once the result is dropped *)
Theorem C07_refs_balanced : forall t ssize rl d env garb w,
  wf_env (the_cfg t ssize rl) d env -> wf_world (the_cfg t ssize rl) d w ->
  forall o g w', run (the_cfg t ssize rl) env garb w = (o, g, w') ->
  incs (drop_held g) = decs (drop_held g).
Proof.
  intros t ssize rl d env garb w He Hw o g w' Hrun.
  destruct (run_spec _ d env garb w o g w' (the_flags t ssize rl) He Hw Hrun) as ((Hb & _) & _).
  exact Hb.
Qed.
Print Assumptions C07_refs_balanced.

Theorem C07_retry_constant : SrcFacts.snapshot_retries = 10.
Proof. reflexivity. Qed.
Print Assumptions C07_retry_constant.

(* structural facts the models rely on beyond the three flags of the_cfg *)
Theorem C07_structure :
  SrcFacts.snapshot_iframe_reads_in_loop = true /\
  SrcFacts.snapshot_handler_retries_only_if_moved = true /\
  SrcFacts.snapshot_stack_reset_in_attempt = true /\
  SrcFacts.snapshot_check_read_no_switch_bytecode = true /\
  SrcFacts.thread_alive_rechecked = true /\
  SrcFacts.trickery_failure_guarded = true.
Proof. repeat split; reflexivity. Qed.
Print Assumptions C07_structure.

(* unwrap_thread: a slice is returned only for the thread's own innermost frame as of the instant
   sys._current_frames() was read, and the thread was alive at all three reads -- for ALL event
   sequences in the three windows (starts, finishes, steps, other threads reusing idents) *)
Theorem C07_alive_window : forall w e1 e2 e3 f w2,
  unwrap_thread w e1 e2 e3 = (RSlice f, w2) ->
  w2 = lsteps (lsteps w e1) e2 /\ t_alive w2 = true /\ f = (0, tframe w2) /\
  t_alive (lsteps w e1) = true /\ t_alive (lsteps w2 e3) = true.
Proof.
  intros w e1 e2 e3 f w2. unfold unwrap_thread. set (w1 := lsteps w e1). set (w2' := lsteps w1 e2).
  destruct (current_frame_of_ident w2' (t_ident w2')) as [f0|] eqn:Ef; [|discriminate].
  destruct (t_alive (lsteps w2' e3)) eqn:A3; simpl; [|discriminate].
  destruct (t_alive w1) eqn:A1; simpl; [|discriminate].
  intros H. inversion H; subst f0 w2. clear H.
  unfold t_alive in A1. destruct (tlife w1) as [|i|i] eqn:E1; try discriminate.
  pose proof (lsteps_life e2 w1) as S2. rewrite E1 in S2. fold w2' in S2. destruct S2 as [E2|E2].
  - split; [reflexivity|]. unfold t_alive. rewrite E2. split; [reflexivity|].
    unfold t_ident, current_frame_of_ident, t_live_ident in Ef. rewrite E2 in Ef.
    rewrite Nat.eqb_refl in Ef. inversion Ef. auto.
  - (* finished at the second read: it cannot be alive at the third *)
    pose proof (lsteps_life e3 w2') as S3. rewrite E2 in S3.
    unfold t_alive in A3. rewrite S3 in A3. discriminate.
Qed.
Print Assumptions C07_alive_window.

(* not alive at the first or at the last is_alive()  =>  no frames *)
Theorem C07_not_alive_empty : forall w e1 e2 e3,
  t_alive (lsteps w e1) = false \/ t_alive (lsteps (lsteps (lsteps w e1) e2) e3) = false ->
  fst (unwrap_thread w e1 e2 e3) = REmpty.
Proof.
  intros w e1 e2 e3 H. unfold unwrap_thread.
  destruct (current_frame_of_ident _ _); simpl; auto.
  destruct H as [H|H]; rewrite H; simpl; auto.
  rewrite orb_true_r. reflexivity.
Qed.
Print Assumptions C07_not_alive_empty.

Theorem C07_never_started_empty : forall w e1 e2 e3,
  tlife w = NotStarted -> (forall i, ~ In (EStart i) (e1 ++ e2 ++ e3)) ->
  fst (unwrap_thread w e1 e2 e3) = REmpty.
Proof.
  intros w e1 e2 e3 H Hn. apply C07_not_alive_empty. left.
  pose proof (lsteps_life e1 w) as S. rewrite H in S. unfold t_alive. rewrite S; [reflexivity|].
  intros i Hi. apply (Hn i), in_or_app. left; exact Hi.
Qed.
Print Assumptions C07_never_started_empty.

Theorem C07_finished_empty : forall w e1 e2 e3 i,
  tlife w = Finished i -> fst (unwrap_thread w e1 e2 e3) = REmpty.
Proof.
  intros w e1 e2 e3 i H. apply C07_not_alive_empty. left.
  pose proof (lsteps_life e1 w) as S. rewrite H in S. unfold t_alive. rewrite S. reflexivity.
Qed.
Print Assumptions C07_finished_empty.

(* the re-test after the lookup is necessary: without it, ident reuse yields a foreign frame *)
Theorem C07_recheck_needed :
  unwrap_thread_no_recheck (mkL NotStarted 0 []) [EStart 7] [EFinish; OStart 1 7 0] = RSlice (1, 0)
  /\ fst (unwrap_thread (mkL NotStarted 0 []) [EStart 7] [EFinish; OStart 1 7 0] []) = REmpty.
Proof. split; reflexivity. Qed.
Print Assumptions C07_recheck_needed.

(* CPython 3.8-3.10 (_lowlevel_cpython_310.py, no retry protocol; descriptive model M_Snapshot310):
   every raw PyObject* dereference is of a word below stack_validity_limit (the highest level of an
   active finally/with block) of an executing frame -- hence, if no active block was set up above the
   current stack depth, a live slot; a suspended frame is never dereferenced raw; word reads stay
   inside the co_stacksize area.  Example of the hypothesis: P_Snapshot.ex_py310. *)
Theorem C07_py310_reads_below_limit : forall f vs bl rds,
  inspect310 f = Some (vs, bl, rds) ->
  Forall (fun r => match r with
                   | RWord i => i < length (f_mem f)
                   | RDeref i a => f_running f = true /\ i < validity_limit (f_blocks f) /\ a <> 0 /\
                                   ((forall b, In b (f_blocks f) -> b_level b <= f_depth f) -> i < f_depth f)
                   end) rds.
Proof.
  intros f vs bl rds. unfold inspect310. set (top := if f_running f then length (f_mem f) else f_depth f).
  destruct (top <=? length (f_mem f)) eqn:Et; simpl; [|discriminate]. apply Nat.leb_le in Et.
  destruct (forallb _ (f_blocks f)); simpl; [|discriminate].
  destruct (f_running f) eqn:Er.
  - destruct (deref_from 0 (firstn (validity_limit (f_blocks f)) (firstn top (f_mem f)))) as [vs' ds] eqn:Ed.
    intros [= <- <- <-]. apply Forall_app. split.
    + apply words_forall. intros i Hi. lia.
    + apply (deref_from_bound _ _ _ _ _ Ed). intros i a Hi Ha. rewrite firstn_length in Hi.
      split; [reflexivity|]. split; [lia|]. split; [exact Ha|].
      intros Hlev. pose proof (validity_limit_le (f_blocks f) (f_depth f) Hlev). lia.
  - intros [= <- <- <-]. apply words_forall. intros i Hi. lia.
Qed.
Print Assumptions C07_py310_reads_below_limit.

(* FrameDetails.blocks come from the ACCEPTED position: for all schedules -- in particular whatever the
   target does at switch point P6, between acceptance ("snap:ok") and the walk over the exception
   table -- the position handed to the walk is the accepted lasti_before, the blocks are those of that
   position, and the stack is the consistent snapshot of the same position.  Instantiated on
   SrcFacts.snapshot_blocks_from_accepted (the walk starts from the variable assigned from lasti_before
   in the accepted attempt, no fresh f_lasti read after the retry loop).
   Examples: P_Snapshot.ex_blocks, ex_blocks_from_fresh_lasti. *)
Theorem C07_blocks_of_accepted_position : forall t tg ssize rl d env garb w,
  wf_env (the_xcfg t tg ssize rl) d env -> wf_world (the_xcfg t tg ssize rl) d w ->
  forall L st g w6 bp bl, inspect (the_xcfg t tg ssize rl) env garb w = (OOk L st, g, w6, (bp, bl)) ->
  bp = L /\ bl = blocks_at (the_xcfg t tg ssize rl) L /\
  exists pre rs, reads g = pre ++ rs /\ consistent_snapshot (the_xcfg t tg ssize rl) d L st rs.
Proof.
  intros t tg ssize rl d env garb w. destruct (the_xflags t tg ssize rl) as (Hf & Hb).
  exact (blocks_of_accepted _ d env garb w Hf Hb).
Qed.
Print Assumptions C07_blocks_of_accepted_position.

(* unwrap_stackslice's search of the OTHER threads' stacks for a StackSlice's outer frame (a generator
   running on another thread, extract_since(frame)): the result depends neither on the order in which
   sys._current_frames() lists the threads nor on where the caller's own entry sits in that order.
   hits_agree = frames are exclusive to one stack.  Example of the hypotheses: P_Snapshot.ex_search. *)
Theorem C07_search_order_independent : forall me outer ths ths',
  Permutation.Permutation ths ths' -> hits_agree me outer ths ->
  search_others me outer ths = search_others me outer ths'.
Proof.
  intros me outer ths ths' HP Ha.
  destruct (search_cases me outer ths) as [[H1 H2]|(p & Hp & Hh & Hs)];
  destruct (search_cases me outer ths') as [[H1' H2']|(q & Hq & Hh' & Hs')].
  - congruence.
  - exfalso. apply (H2 q); auto. apply (Permutation.Permutation_in q (Permutation.Permutation_sym HP) Hq).
  - exfalso. apply (H2' p); auto. apply (Permutation.Permutation_in p HP Hp).
  - rewrite Hs, Hs'. apply Ha; auto. apply (Permutation.Permutation_in q (Permutation.Permutation_sym HP) Hq).
Qed.
Print Assumptions C07_search_order_independent.

Theorem C07_search_skips_caller : forall me outer s a b,
  search_others me outer (a ++ (me, s) :: b) = search_others me outer (a ++ b).
Proof.
  intros me outer s a b. induction a as [|[i st] a IH]; simpl.
  - rewrite Nat.eqb_refl. reflexivity.
  - rewrite IH. reflexivity.
Qed.
Print Assumptions C07_search_skips_caller.

(* exactness: the outer frame is on another thread's stack => exactly that thread's frames from
   `outer` inward, outermost first, no error -- wherever that thread and the caller are listed *)
Theorem C07_search_exact : forall me outer own ths i inner rest,
  try_from outer own = [] -> hits_agree me outer ths ->
  In (i, inner ++ outer :: rest) ths -> i <> me -> ~ In outer inner ->
  unwrap_outer me outer own ths = (outer :: rev inner, false).
Proof.
  intros me outer own ths i inner rest Hown Ha Hin Hne Hno. unfold unwrap_outer. rewrite Hown.
  assert (Ht : try_from outer (inner ++ outer :: rest) = outer :: rev inner).
  { unfold try_from. rewrite try_from_acc_split by auto. rewrite app_nil_r. reflexivity. }
  destruct (search_cases me outer ths) as [[H1 H2]|(p & Hp & Hh & Hs)].
  - exfalso. apply (H2 _ Hin). split; simpl; auto. rewrite Ht. discriminate.
  - rewrite Hs. rewrite (Ha p (i, inner ++ outer :: rest)); auto.
    + simpl. rewrite Ht. reflexivity.
    + split; simpl; auto. rewrite Ht. discriminate.
Qed.
Print Assumptions C07_search_exact.
