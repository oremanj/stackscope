(* C06 — extraction is a pure observation.
   What a model CAN carry of this property is stated here; the decisive part — the live
   interpreter is not perturbed, reference counts return to baseline, no crash — is decided by
   the runtime twin-run leg (harness/progs.py leg_purity) and is labelled partial. *)
Require Import Base M_Purity P_Purity M_Bytecode M_Analysis M_WithMachine.
From SS.gen Require Import SrcFacts.

(* every call in stackscope's runtime modules that could advance or finalise a foreign object
   (send/throw/close/aclose/asend/athrow/switch/next) is one of the allow-listed sites that only
   touch objects stackscope created itself, and the only module-level state written from inside
   functions is the allow-listed hidden state of M_Purity (regenerated from /repo's source) *)
Theorem C06_sites_complete :
  SrcFacts.c06_resume_sites_allowlisted = true /\ SrcFacts.c06_module_state_allowlisted = true.
Proof. split; reflexivity. Qed.
Print Assumptions C06_sites_complete.

(* "the interpreter never crashes" rests, for frames running in another thread, on the structure
   of the frame snapshot that C07's theorems are instantiated on (each raw slot read is one
   operation together with taking the reference and is immediately preceded by the f_lasti
   re-check; no call between capturing the interpreter-frame pointer and the first re-check;
   all raw reads inside the retry loop; a running frame's stack is read only up to the depth of an
   exception-table entry that contains f_lasti, or 0): regenerated from /repo's source on every run *)
Theorem C06_snapshot_structure :
  SrcFacts.snapshot_slot_check_adjacent = true /\ SrcFacts.snapshot_header_check_adjacent = true
  /\ SrcFacts.snapshot_capture_to_check_no_call = true /\ SrcFacts.snapshot_iframe_reads_in_loop = true
  /\ SrcFacts.snapshot_check_read_no_switch_bytecode = true
  /\ SrcFacts.c06_trim_depth_within_entry = true.
Proof. repeat split; reflexivity. Qed.
Print Assumptions C06_snapshot_structure.

(* repeatable: in an unchanged environment a second extraction leaves the hidden state exactly
   as the first one did (so it cannot behave differently), for all environments, options and
   prior states; the caller's options are restored *)
Theorem C06_state_idempotent : forall e wc rc h,
  extract_hidden e wc rc (extract_hidden e wc rc h) = extract_hidden e wc rc h
  /\ opts (extract_hidden e wc rc h) = opts h
  /\ registry_size (extract_hidden e wc rc h) = registry_size h.
Proof.
  intros. split; [apply extract_hidden_idem|]. split; [reflexivity|apply extract_hidden_registry].
Qed.
Print Assumptions C06_state_idempotent.

(* nothing retained: M_Purity.extract_hidden takes environment, options and prior state and no
   target, and no component of the hidden state has a type that could hold a frame, manager or
   value-stack object; stated as independence of an arbitrary target parameter *)
Theorem C06_nothing_retained : forall (Target : Type) (x y : Target) e wc rc h,
  (fun _ : Target => extract_hidden e wc rc h) x = (fun _ : Target => extract_hidden e wc rc h) y.
Proof. reflexivity. Qed.
Print Assumptions C06_nothing_retained.

(* ghost reference balance of the frame snapshot: whatever the pattern of retried attempts, as
   many references are released (when the partial / final lists are dropped) as were taken *)
Theorem C06_refs_balanced : forall attempts, fst (refs_after attempts) = snd (refs_after attempts).
Proof.
  induction attempts as [|n r IH]; [reflexivity|]. cbn [refs_after]. destruct (refs_after r). cbn in *. lia.
Qed.
Print Assumptions C06_refs_balanced.

(* the analysis models are functions of the observation (model level only; equality of real
   results on an unchanged target is checked by the runtime leg) *)
Theorem C06_analysis_deterministic : forall v c t r l (st : list (val nat)),
  trickery v c t r l st = trickery v c t r l st /\ referents v c t l st = referents v c t l st.
Proof. split; reflexivity. Qed.
Print Assumptions C06_analysis_deterministic.

Example C06_example_idempotent_nontrivial :
  let e := {| modules := [1; 2; 3]; detect := true |} in
  let h := {| pending := [2; 5]; len_cache := 0; trickery_sw := None; opts := None; registry_size := 7 |} in
  extract_hidden e true false h <> h /\ pending (extract_hidden e true false h) = [5].
Proof. cbn. split; [discriminate|reflexivity]. Qed.
