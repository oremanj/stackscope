(* P_Cert.v — soundness of certificate checking for the with-machine.
   The machine, what it shows an observer and the model of the analysis only move manager
   instances about, so all three commute with any relabelling of the instances, site by site
   (trans_relabel, obs_relabel, trickery_relabel).  The main results are instances of that,
   each under checkk v k c t ct = true for one kind k of check:
     cert_sound      every reachable concrete state is, after erasing manager instances
                     (relabel all to tt), the certified state of its pc;
     inv_reach       in every reachable state a with-site determines its manager instance
                     (stack tags and truth agree): no transition invents an identity (trans_ids:
                     relabel those not yet around to None and nothing changes);
     analysis_exact  at every observation k is about (suspended for KSusp, running for KRun) of
                     every reachable state the model of stackscope's analysis returns exactly
                     the contexts the ground truth demands, with the identical manager
                     instances: the state is its certified erasure relabelled by
                     site |-> instance (Inv_relabel), and the checker's verdict on the erasure
                     is carried along. *)
Require Import Base M_Bytecode M_Analysis M_WithMachine M_Cert.

Lemma map_repeat {A B} (f : A -> B) x n : map f (repeat x n) = repeat (f x) n.
Proof. induction n; simpl; auto. f_equal; auto. Qed.
Lemma find_map {A B} (f : A -> B) p l : find p (map f l) = option_map f (find (fun x => p (f x)) l).
Proof. induction l as [|x l IH]; simpl; auto. destruct (p (f x)); simpl; auto. Qed.
Lemma filter_map_comm {A B} (f : A -> B) p l : filter p (map f l) = map f (filter (fun x => p (f x)) l).
Proof. induction l as [|x l IH]; simpl; auto. destruct (p (f x)); simpl; rewrite IH; auto. Qed.

Lemma val_eqb_eq a b : val_eqb a b = true -> a = b.
Proof.
  destruct a as [|s []|s []|s []], b as [|s' []|s' []|s' []]; simpl; try discriminate; auto;
    intros H; apply Nat.eqb_eq in H; subst; reflexivity.
Qed.
Lemma phase_eqb_eq a b : phase_eqb a b = true -> a = b.
Proof. destruct a, b; simpl; try discriminate; auto. Qed.
Lemma tent_eqb_eq a b : tent_eqb a b = true -> a = b.
Proof.
  destruct a as [s [] a p], b as [s' [] a' p']. unfold tent_eqb; simpl. intros H.
  apply andb_true_iff in H as [H H3]. apply andb_true_iff in H as [H1 H2].
  apply Nat.eqb_eq in H1. apply Bool.eqb_prop in H2. apply phase_eqb_eq in H3. subst. reflexivity.
Qed.
Lemma st_eqb_eq a b : st_eqb a b = true -> a = b.
Proof.
  unfold st_eqb. intros H. apply andb_true_iff in H as [H H3]. apply andb_true_iff in H as [H1 H2].
  apply Nat.eqb_eq in H1. apply list_eqb_eq in H2; [|apply val_eqb_eq].
  apply list_eqb_eq in H3; [|apply tent_eqb_eq].
  destruct a, b; simpl in *; subst; reflexivity.
Qed.

(* Manager instances are data the machine only moves about, and never from one with-site to another:
   every operation of [trans] commutes with a relabelling [g] of the instances, even one that looks
   at the site an instance stands at. *)
Section Relabel.
Context {I J : Type} (g : nat -> I -> J).

Definition vre (v : val I) : val J :=
  match v with VO => VO | VX s i => VX s (g s i) | VEA s i => VEA s (g s i) | VXA s i => VXA s (g s i) end.
Definition tre (e : tent I) : tent J :=
  {| t_site := t_site e; t_inst := g (t_site e) (t_inst e); t_async := t_async e; t_phase := t_phase e |}.
Definition sre (s : state I) : state J :=
  {| pc := pc s; stack := map vre (stack s); truth := map tre (truth s) |}.

Lemma is_VO_re v : is_VO (vre v) = is_VO v.
Proof. destruct v; reflexivity. Qed.
Lemma all_VO_re l : all_VO (map vre l) = all_VO l.
Proof. unfold all_VO. induction l as [|x l IH]; simpl; auto. rewrite is_VO_re, IH. reflexivity. Qed.
Lemma keep_bottom_re d st : keep_bottom d (map vre st) = map vre (keep_bottom d st).
Proof. unfold keep_bottom. rewrite map_length, <- skipn_map. reflexivity. Qed.
Lemma set_phase_re s ph tr : set_phase s ph (map tre tr) = map tre (set_phase s ph tr).
Proof.
  unfold set_phase. rewrite !map_map. apply map_ext. intros e. cbn [tre t_site].
  destruct (t_site e =? s); reflexivity.
Qed.
Lemma remove_site_re s tr : remove_site s (map tre tr) = map tre (remove_site s tr).
Proof. unfold remove_site. rewrite filter_map_comm. reflexivity. Qed.
Lemma active_re tr : filter is_active (map tre tr) = map tre (filter is_active tr).
Proof. rewrite filter_map_comm. reflexivity. Qed.
Lemma event_re v tr : event (vre v) (map tre tr) = map tre (event v tr).
Proof. destruct v; cbn [event vre]; auto using set_phase_re, remove_site_re. Qed.
Lemma find_site_re s tr : find_site s (map tre tr) = option_map tre (find_site s tr).
Proof. unfold find_site. rewrite find_map. reflexivity. Qed.

Lemma sre_mk p st tr : sre (mk p st tr) = mk p (map vre st) (map tre tr).
Proof. reflexivity. Qed.

Lemma exc_edge_re t keep p st tr :
  exc_edge t keep p (map vre st) (map tre tr) = option_map (map sre) (exc_edge t keep p st tr).
Proof.
  unfold exc_edge. destruct (lookup_h t p) as [h|]; [|reflexivity].
  rewrite map_length. destruct (h_depth h <=? length st); [|reflexivity].
  cbn [option_map map]. rewrite sre_mk. cbn [map vre]. rewrite map_app, keep_bottom_re.
  destruct keep; [|rewrite active_re]; destruct (h_lasti h); reflexivity.
Qed.

Lemma both_re (a b : option (list (state I))) :
  both (option_map (map sre) a) (option_map (map sre) b) = option_map (map sre) (both a b).
Proof. destruct a, b; simpl; auto. rewrite map_app. reflexivity. Qed.

Lemma swap_top_re n st : swap_top n (map vre st) = option_map (map vre) (swap_top n st).
Proof.
  unfold swap_top. destruct n as [|[|k]]; try reflexivity.
  destruct st as [|top r]; [reflexivity|]. cbn [map].
  rewrite nth_error_map. destruct (nth_error r k); [|reflexivity].
  cbn [option_map map]. rewrite map_app. cbn [map]. rewrite <- firstn_map, <- skipn_map. reflexivity.
Qed.

Lemma exit_call_re t p st rest tr s i :
  exit_call t p (map vre st) (map vre rest) (map tre tr) s (g s i)
  = option_map (map sre) (exit_call t p st rest tr s i).
Proof.
  unfold exit_call. rewrite find_site_re. destruct (find_site s tr) as [e|]; [|reflexivity].
  cbn [option_map]. rewrite remove_site_re, exc_edge_re, <- both_re. f_equal.
  cbn [tre t_async]. destruct (t_async e); cbn [option_map map]; rewrite sre_mk; cbn [map vre];
    rewrite ?set_phase_re, ?remove_site_re; reflexivity.
Qed.

(* BEFORE_WITH puts the fresh instance at its own site *)
Theorem trans_relabel v c t fresh s :
  trans v c t (g (pc s) fresh) (sre s) = option_map (map sre) (trans v c t fresh s).
Proof.
  destruct s as [p st tr]. unfold trans. cbn [sre pc stack truth].
  destruct (length c <=? p); [reflexivity|].
  assert (Hexc := exc_edge_re t false p st tr).
  destruct (at_ c p).
  - (* ICache *) reflexivity.
  - reflexivity.
  - reflexivity.
  - (* IPrecall *) reflexivity.
  - (* IResume *) rewrite Hexc, <- both_re. reflexivity.
  - (* ILoadConst *) reflexivity.
  - (* IPop *) destruct st; reflexivity.
  - (* ISwap *) rewrite swap_top_re. destruct (swap_top n st); reflexivity.
  - (* ICopy *) destruct n as [|k]; [reflexivity|]. rewrite nth_error_map.
    destruct (nth_error st k); reflexivity.
  - (* IBeforeWith *)
    destruct st as [|m r]; [reflexivity|]. cbn [map]. rewrite is_VO_re.
    destruct (negb (is_VO m)); [reflexivity|].
    rewrite exc_edge_re, <- both_re. f_equal.
    destruct async; cbn [option_map map]; rewrite sre_mk; cbn [map vre]; rewrite map_app; reflexivity.
  - (* IGetAwaitable *) destruct st; [reflexivity|]. rewrite Hexc. cbn [map]. rewrite <- both_re. reflexivity.
  - (* ISend *)
    destruct st as [|x [|recv r]]; try reflexivity. rewrite Hexc. cbn [map].
    rewrite event_re, <- both_re. destruct v; reflexivity.
  - (* IEndSend *) destruct st as [|x [|w r]]; reflexivity.
  - (* ICleanupThrow *)
    destruct st as [|a [|b [|recv r]]]; try reflexivity. rewrite Hexc. cbn [map].
    rewrite event_re, <- both_re. reflexivity.
  - (* IYield *)
    destruct st as [|x r]; [reflexivity|]. cbn [map].
    change (VO :: map vre r) with (map vre (VO :: r)).
    destruct v.
    + (* V311 *) rewrite exc_edge_re, <- !both_re. f_equal.
      destruct (at_ c (p - 1)); try reflexivity. destruct r as [|recv r']; [reflexivity|].
      cbn [map]. rewrite event_re. reflexivity.
    + (* V312 *) rewrite exc_edge_re, <- both_re. reflexivity.
  - (* ICall *)
    rewrite nth_error_map. destruct (nth_error st (S n)) as [[|s i|s i|s i]|]; cbn [option_map vre]; try reflexivity.
    + rewrite firstn_map, all_VO_re. destruct (all_VO (firstn (S n) st)); [|reflexivity].
      rewrite Hexc, skipn_map, <- both_re. reflexivity.
    + rewrite firstn_map, all_VO_re. destruct (all_VO (firstn (S n) st)); [|reflexivity].
      rewrite skipn_map. apply exit_call_re.
  - (* IWithExceptStart *)
    rewrite nth_error_map. destruct (nth_error st 3) as [[|s i|s i|s i]|]; cbn [option_map vre]; try reflexivity.
    apply exit_call_re.
  - (* IPushExcInfo *) destruct st; reflexivity.
  - (* IPopExcept *) destruct st; reflexivity.
  - (* IReraise *) exact Hexc.
  - (* IRaise *) rewrite map_length. destruct (n <=? length st); [exact Hexc|reflexivity].
  - (* IReturn *) rewrite map_length. destruct (pops <=? length st); reflexivity.
  - (* IJump *) destruct k; try reflexivity. rewrite Hexc, <- both_re. reflexivity.
  - (* ICondJump *)
    destruct st as [|x r]; [reflexivity|]. cbn [map]. rewrite is_VO_re.
    destruct (negb (is_VO x)); [reflexivity|].
    change (VO :: map vre r) with (map vre (VO :: r)).
    destruct raises.
    + change (vre x :: map vre r) with (map vre (x :: r)). rewrite Hexc, <- both_re. reflexivity.
    + reflexivity.
  - (* IJumpOrPop *)
    destruct st as [|x r]; [reflexivity|]. cbn [map]. rewrite is_VO_re.
    destruct (negb (is_VO x)); [reflexivity|].
    change (vre x :: map vre r) with (map vre (x :: r)). rewrite Hexc, <- both_re. reflexivity.
  - (* IForIter *) rewrite Hexc, <- both_re. destruct v; [destruct st|]; reflexivity.
  - (* IGen *)
    rewrite map_length, firstn_map, all_VO_re.
    destruct ((pops <=? length st) && all_VO (firstn pops st)); [|reflexivity].
    destruct raises.
    + rewrite Hexc, <- both_re. cbn [option_map map]. rewrite sre_mk, map_app, map_repeat, <- skipn_map. reflexivity.
    + cbn [both option_map map app]. rewrite sre_mk, map_app, map_repeat, <- skipn_map. reflexivity.
Qed.

End Relabel.

(* M_WithMachine.smap f is sre (fun _ => f): the relabelling that ignores the site *)
Section Commute.
Context {I J : Type} (f : I -> J).
Notation sm := (smap f).

Theorem trans_commute v c t fresh s :
  trans v c t (f fresh) (sm s) = option_map (map sm) (trans v c t fresh s).
Proof. exact (trans_relabel (fun _ => f) v c t fresh s). Qed.

End Commute.

Inductive reach (v : pyver) (c : code) (t : table) : state nat -> Prop :=
  | reach_init : reach v c t (mk 0 [] [])
  | reach_step s fresh succs s' :
      reach v c t s -> trans v c t fresh s = Some succs -> In s' succs -> reach v c t s'.

Definition erase : state nat -> astate := smap (fun _ => tt).

Lemma check_pc_of v k c t ct p : checkk v k c t ct = true -> p < length c -> check_pc v k c t ct p = true.
Proof.
  unfold checkk. intros H Hp. apply andb_true_iff in H as [H _].
  rewrite forallb_forall in H. apply H. apply in_seq. lia.
Qed.

Lemma trans_some_pc {I} v c t (fr : I) s l : trans v c t fr s = Some l -> pc s < length c.
Proof.
  unfold trans. destruct (length c <=? pc s) eqn:E; [discriminate|]. intros _.
  apply Nat.leb_gt in E. exact E.
Qed.

Theorem cert_sound v k c t ct : checkk v k c t ct = true ->
  forall s, reach v c t s -> cert_at ct (pc s) = Some (erase s).
Proof.
  intros Hc s Hr. induction Hr as [|s fresh succs s' Hr IH Ht Hin].
  - unfold checkk in Hc. apply andb_true_iff in Hc as [_ H0]. cbn [pc mk].
    destruct (cert_at ct 0); [|discriminate]. apply st_eqb_eq in H0. subst. reflexivity.
  - pose proof (check_pc_of _ _ _ _ _ _ Hc (trans_some_pc _ _ _ _ _ _ Ht)) as Hk.
    unfold check_pc in Hk. rewrite IH in Hk.
    apply andb_true_iff in Hk as [Hk _]. apply andb_true_iff in Hk as [_ Hk].
    pose proof (trans_commute (fun _ : nat => tt) v c t fresh s) as Hcm. rewrite Ht in Hcm.
    cbn [option_map] in Hcm. unfold erase in Hk. rewrite Hcm in Hk.
    rewrite forallb_forall in Hk. specialize (Hk (erase s') (in_map _ _ _ Hin)).
    unfold ok_succ in Hk. change (pc (erase s')) with (pc s') in Hk.
    destruct (cert_at ct (pc s')); [|discriminate]. apply st_eqb_eq in Hk. congruence.
Qed.

Definition ore {I J} (g : nat -> I -> J) (o : observation I) : observation J :=
  let '(r, l, st, tr) := o in (r, l, map (vre g) st, map (tre g) tr).

(* a reported manager is relabelled at the site whose exit method the slot held *)
Definition cre {I J} (g : nat -> I -> J) (x : ctxv I) : ctxv J :=
  {| c_site := c_site x; c_async := c_async x; c_obj := option_map (g (c_from x)) (c_obj x);
     c_exiting := c_exiting x; c_from := c_from x |}.

Definition tres_re {I J} (g : nat -> I -> J) (r : tres I) : tres J :=
  match r with TOk l => TOk (map (cre g) l) | TFail => TFail | TWarn => TWarn end.

Section Relabel2.
Context {I J : Type} (g : nat -> I -> J).
Notation vg := (vre g).
Notation tg := (tre g).

Lemma run_at_re c p (st : list (val I)) (tr : list (tent I)) :
  run_at c p (map vg st) (map tg tr) = map (ore g) (run_at c p st tr).
Proof. unfold run_at. destruct (ncaches c p); reflexivity. Qed.

Lemma obs_relabel c (s : state I) : obs c (sre g s) = map (ore g) (obs c s).
Proof.
  destruct s as [p st tr]. unfold obs. cbn [sre pc stack truth].
  destruct (at_ c p); try reflexivity; try apply run_at_re.
  - destruct st as [|[] r]; try reflexivity. apply (run_at_re c p (VO :: r) tr).
  - destruct st; reflexivity.
  - rewrite nth_error_map. destruct (nth_error st (S n)) as [[]|]; cbn [option_map vre];
      rewrite ?set_phase_re; apply run_at_re.
  - rewrite nth_error_map. destruct (nth_error st 3) as [[]|]; cbn [option_map vre]; try reflexivity.
    rewrite set_phase_re. apply run_at_re.
  - destruct raises; [apply run_at_re|reflexivity].
  - destruct raises; [apply run_at_re|reflexivity].
Qed.

Lemma expected_relabel (tr : list (tent I)) : expected (map tg tr) = map (cre g) (expected tr).
Proof.
  unfold expected. induction tr as [|e tr IH]; [reflexivity|]. cbn [map flat_map].
  rewrite IH, map_app. f_equal. cbn [tre t_phase]. destruct (t_phase e); reflexivity.
Qed.

Lemma slot_re (st : list (val I)) level : slot (map vg st) level = option_map vg (slot st level).
Proof.
  destruct level; cbn [slot]; [destruct st; reflexivity|]. rewrite <- map_rev. apply nth_error_map.
Qed.

Lemma objs_of_re w (st : list (val I)) bl :
  objs_of w (map vg st) bl = option_map (map (cre g)) (objs_of w st bl).
Proof.
  induction bl as [|[h level] bl IH]; [reflexivity|]. cbn [objs_of].
  destruct (winfo_get w h) as [[site asy]|]; [|exact IH].
  rewrite slot_re. destruct (slot st level) as [v|]; [|reflexivity]. cbn [option_map].
  rewrite IH. destruct v; cbn [self_of vre]; try reflexivity.
  destruct (objs_of w st bl); reflexivity.
Qed.

Lemma trickery_relabel v c t r l (st : list (val I)) :
  trickery v c t r l (map vg st) = tres_re g (trickery v c t r l st).
Proof.
  unfold trickery. destruct (with_info v c t) as [w|]; [|reflexivity].
  destruct (blocks t l) as [bl|]; [|reflexivity].
  replace (if r then keep_bottom (trim_depth t l) (map vg st) else map vg st)
    with (map vg (if r then keep_bottom (trim_depth t l) st else st))
    by (destruct r; [symmetry; apply keep_bottom_re|reflexivity]).
  rewrite objs_of_re. destruct (objs_of w _ bl) as [lc|]; [|reflexivity]. cbn [option_map].
  destruct (exiting v c t l); try reflexivity.
  destruct (winfo_get w handler) as [[site asy]|]; [|reflexivity].
  cbn [tres_re]. rewrite map_app. reflexivity.
Qed.
End Relabel2.

(* the identities (with-site, manager instance) a state mentions: on the stack and in the truth *)
Definition tag_id {I} (v : val I) : list (nat * I) :=
  match v with VO => [] | VX s i | VEA s i | VXA s i => [(s, i)] end.
Definition tags {I} (st : list (val I)) : list (nat * I) := flat_map tag_id st.
Definition tids {I} (tr : list (tent I)) : list (nat * I) := map (fun e => (t_site e, t_inst e)) tr.
Definition ids {I} (s : state I) : list (nat * I) := tags (stack s) ++ tids (truth s).

Definition Inv {I} (s : state I) : Prop :=
  forall a i j, In (a, i) (ids s) -> In (a, j) (ids s) -> i = j.

Lemma tags_app {I} (st1 st2 : list (val I)) : tags (st1 ++ st2) = tags st1 ++ tags st2.
Proof. apply flat_map_app. Qed.
Lemma tags_cons {I} v (st : list (val I)) : tags (v :: st) = tag_id v ++ tags st.
Proof. reflexivity. Qed.
Lemma tags_In {I} v (st : list (val I)) : In v st -> incl (tag_id v) (tags st).
Proof. intros Hv x Hx. apply in_flat_map. eauto. Qed.
Lemma tids_set_phase {I} s ph (tr : list (tent I)) : tids (set_phase s ph tr) = tids tr.
Proof.
  unfold tids, set_phase. rewrite map_map. apply map_ext. intros e.
  destruct (t_site e =? s); reflexivity.
Qed.

Lemma sre_ext {I J} (g g' : nat -> I -> J) s :
  sre g s = sre g' s <-> forall a i, In (a, i) (ids s) -> g a i = g' a i.
Proof.
  destruct s as [p st tr]. unfold sre, ids. cbn [pc stack truth]. split.
  - intros [= Hst Htr] a i H. apply in_app_or in H as [H|H].
    + apply in_flat_map in H as (v & Hv & Hx). pose proof (ext_in_map Hst _ Hv) as E.
      destruct v; [destruct Hx|..]; destruct Hx as [[= <- <-]|[]]; injection E; trivial.
    + apply in_map_iff in H as (e & [= <- <-] & He). pose proof (ext_in_map Htr _ He) as E.
      injection E. trivial.
  - intros H. f_equal; apply map_ext_in.
    + intros v Hv. pose proof (tags_In v st Hv) as Hx.
      destruct v; cbn [vre]; f_equal; apply H, in_or_app; left; apply Hx; left; reflexivity.
    + intros e He. unfold tre. f_equal. apply H, in_or_app. right.
      exact (in_map (fun e => (t_site e, t_inst e)) _ _ He).
Qed.

Lemma trans_fresh {I} ver c t (fresh fresh' : I) s :
  (forall a, at_ c (pc s) <> IBeforeWith a) -> trans ver c t fresh s = trans ver c t fresh' s.
Proof. intros H. unfold trans. destruct (at_ c (pc s)); try reflexivity. destruct (H _ eq_refl). Qed.

(* No transition invents an identity; BEFORE_WITH brings one in, its own site with the fresh instance.
   Relabel the identities listed in L by Some and all others by None: the source looks the same
   as under Some throughout, hence so do its successors, so all their identities are in L. *)
Lemma trans_ids {I} (dec : forall x y : nat * I, {x = y} + {x <> y}) ver c t (fresh : I) s succs s' :
  trans ver c t fresh s = Some succs -> In s' succs ->
  incl (ids s') (match at_ c (pc s) with
                 | IBeforeWith _ => (pc s, fresh) :: ids s
                 | _ => ids s
                 end).
Proof.
  intros Ht Hin. set (L := match at_ c (pc s) with IBeforeWith _ => _ | _ => _ end).
  set (g := fun a i => if in_dec dec (a, i) L then Some i else None).
  assert (Hg : forall a i, In (a, i) L -> g a i = Some i).
  { intros a i H. unfold g. destruct (in_dec dec (a, i) L); [reflexivity|contradiction]. }
  assert (Hs : sre g s = sre (fun _ => Some) s).
  { apply sre_ext. intros a i H. apply Hg. subst L. destruct (at_ c (pc s)); try exact H. right. exact H. }
  assert (Hf : trans ver c t (g (pc s) fresh) (sre g s) = trans ver c t (Some fresh) (sre g s)).
  { destruct (at_ c (pc s)) eqn:E; try (apply trans_fresh; cbn [sre pc]; rewrite E; discriminate).
    rewrite Hg; [reflexivity|]. left. reflexivity. }
  rewrite (trans_relabel g), Hs, (trans_relabel (fun _ => Some)), Ht in Hf. injection Hf as Hf.
  pose proof (ext_in_map Hf _ Hin) as Hs'.
  intros [a i] H. apply (proj1 (sre_ext _ _ _) Hs') in H. unfold g in H.
  destruct (in_dec dec (a, i) L); [assumption|discriminate].
Qed.

Lemma sites_of_ids {I} (s : state I) : sites_of s = map fst (ids s).
Proof.
  unfold sites_of, ids, tags, tids. rewrite map_app, map_map. f_equal.
  induction (stack s) as [|v st IH]; [reflexivity|]. cbn [flat_map]. rewrite map_app, IH.
  destruct v; reflexivity.
Qed.

Lemma sites_of_smap {I J} (f : I -> J) (s : state I) : sites_of (smap f s) = sites_of s.
Proof.
  unfold sites_of. cbn [smap stack truth]. rewrite map_map, flat_map_concat_map, map_map, <- flat_map_concat_map.
  f_equal. apply flat_map_ext. intros []; reflexivity.
Qed.

Lemma noreentry_smap {I J} (f : I -> J) c (s : state I) : noreentry c (smap f s) = noreentry c s.
Proof. unfold noreentry. change (pc (smap f s)) with (pc s). rewrite sites_of_smap. reflexivity. Qed.

Lemma Inv_incl {I} (s s' : state I) : incl (ids s') (ids s) -> Inv s -> Inv s'.
Proof. intros Hi H a i j Ha Hb. eapply H; eauto. Qed.

Lemma id_dec (x y : nat * nat) : {x = y} + {x <> y}.
Proof. decide equality; apply Nat.eq_dec. Qed.

Theorem inv_reach v k c t ct : checkk v k c t ct = true -> forall s, reach v c t s -> Inv s.
Proof.
  intros Hc s Hr. induction Hr as [|s fresh succs s' Hr IH Ht Hin].
  - intros a i j [].
  - pose proof (trans_ids id_dec _ _ _ _ _ _ _ Ht Hin) as Hincl.
    pose proof (check_pc_of _ _ _ _ _ _ Hc (trans_some_pc _ _ _ _ _ _ Ht)) as Hk.
    unfold check_pc in Hk. rewrite (cert_sound _ _ _ _ _ Hc _ Hr) in Hk.
    apply andb_true_iff in Hk as [Hk _]. apply andb_true_iff in Hk as [Hk _].
    unfold erase in Hk. rewrite noreentry_smap in Hk. unfold noreentry in Hk.
    destruct (at_ c (pc s)); try (eapply Inv_incl; eassumption).
    (* BEFORE_WITH: the checker saw to it that the site is not among the identities around *)
    apply negb_true_iff, mem_nat_false in Hk. rewrite sites_of_ids in Hk.
    intros a i j Ha Hb. apply Hincl in Ha. apply Hincl in Hb.
    destruct Ha as [Ha|Ha], Hb as [Hb|Hb].
    + congruence.
    + inversion Ha; subst. exfalso. apply Hk. apply (in_map fst) in Hb. exact Hb.
    + inversion Hb; subst. exfalso. apply Hk. apply (in_map fst) in Ha. exact Ha.
    + eapply IH; eauto.
Qed.

Lemma ctxv_eqb_eq a b : ctxv_eqb a b = true -> a = b.
Proof.
  destruct a as [s1 a1 o1 e1 f1], b as [s2 a2 o2 e2 f2]. unfold ctxv_eqb. cbn.
  intros H. apply andb_true_iff in H as [Ha H5]. apply andb_true_iff in Ha as [Hb H4].
  apply andb_true_iff in Hb as [Hc H3]. apply andb_true_iff in Hc as [H1 H2].
  apply Nat.eqb_eq in H1. apply Bool.eqb_prop in H2. apply Bool.eqb_prop in H4. apply Nat.eqb_eq in H5.
  subst. f_equal. destruct o1 as [[]|], o2 as [[]|]; try discriminate; reflexivity.
Qed.

Lemma objs_of_slots {I} w (st : list (val I)) bl l :
  objs_of w st bl = Some l ->
  forall x i, In x l -> c_obj x = Some i -> In (VX (c_from x) i) st.
Proof.
  revert l; induction bl as [|[h level] bl IH]; intros l H x i Hx Hi.
  - inversion H; subst. destruct Hx.
  - cbn [objs_of] in H. destruct (winfo_get w h) as [[site asy]|]; [|eauto].
    destruct (slot st level) as [v|] eqn:Es; [|discriminate].
    destruct v as [|s j|s j|s j]; cbn [self_of] in H; try discriminate.
    destruct (objs_of w st bl) as [l'|]; [|discriminate]. inversion H; subst; clear H.
    destruct Hx as [<-|Hx]; [|eauto]. cbn in Hi. inversion Hi; subst. cbn [c_from].
    destruct level; cbn [slot] in Es.
    + destruct st; [discriminate|]. inversion Es; subst. left; reflexivity.
    + apply nth_error_In in Es. apply in_rev in Es. exact Es.
Qed.

Lemma trickery_slots {I} v c t r l (st : list (val I)) lc :
  trickery v c t r l st = TOk lc ->
  forall x i, In x lc -> c_obj x = Some i ->
  In (VX (c_from x) i) (if r then keep_bottom (trim_depth t l) st else st).
Proof.
  unfold trickery. destruct (with_info v c t) as [w|]; [|discriminate].
  destruct (blocks t l) as [bl|]; [|discriminate].
  destruct (objs_of w _ bl) as [lo|] eqn:Eo; [|discriminate].
  pose proof (objs_of_slots _ _ _ _ Eo) as Hlo.
  destruct (exiting v c t l).
  - intros [= <-]. exact Hlo.
  - destruct (winfo_get w handler) as [[site asy]|]; [|discriminate].
    intros [= <-] x i Hx Hi. apply in_app_or in Hx as [Hx|[<-|[]]]; [eauto|discriminate].
  - discriminate.
Qed.

Lemma in_expected {I} (tr : list (tent I)) x : In x (expected tr) ->
  exists e, In e tr /\ c_site x = t_site e /\ c_from x = t_site e /\
    ((t_phase e = Active /\ c_obj x = Some (t_inst e) /\ c_exiting x = false) \/
     (t_phase e = Exiting /\ c_obj x = None /\ c_exiting x = true)).
Proof.
  unfold expected. intros Hx. apply in_flat_map in Hx as (e & He & Hx). exists e.
  destruct (t_phase e) eqn:E; cbn in Hx; try contradiction; destruct Hx as [<-|[]]; cbn; intuition.
Qed.

Lemma Inv_relabel (s : state nat) : Inv s -> exists g : nat -> unit -> nat, sre g (erase s) = s.
Proof.
  intros HI.
  set (inst a := match find (fun x => fst x =? a) (ids s) with Some x => snd x | None => 0 end).
  assert (Hi : forall a i, In (a, i) (ids s) -> inst a = i).
  { intros a i H. unfold inst. destruct (find _ (ids s)) as [[a' j]|] eqn:E.
    - apply find_some in E as [E1 E2]. apply Nat.eqb_eq in E2. cbn in E2. subst a'. exact (HI a j i E1 H).
    - apply (find_none _ _ E) in H. cbn in H. rewrite Nat.eqb_refl in H. discriminate. }
  exists (fun a _ => inst a). destruct s as [p st tr]. unfold erase, smap, sre, ids in *.
  cbn [pc stack truth] in *. rewrite !map_map. f_equal.
  - rewrite <- (map_id st) at 2. apply map_ext_in. intros v Hv. pose proof (tags_In v st Hv) as Hx.
    destruct v; cbn; f_equal; apply Hi, in_or_app; left; apply Hx; left; reflexivity.
  - rewrite <- (map_id tr) at 2. apply map_ext_in. intros [a i y ph] He. unfold tre. cbn. f_equal.
    apply Hi, in_or_app. right. exact (in_map (fun e => (t_site e, t_inst e)) _ _ He).
Qed.

(* an observation of a reachable state is a relabelling of one the checker has passed on the
   certified erasure: where analysis_exact and C20_fallback_sound start *)
Lemma obs_reach v k c t ct : checkk v k c t ct = true ->
  forall s, reach v c t s -> forall o, In o (obs c s) ->
  exists (g : nat -> unit -> nat) o', o = ore g o' /\ obs_check v k c t o' = true.
Proof.
  intros Hc s Hr o Hin. destruct (Inv_relabel s (inv_reach _ _ _ _ _ Hc _ Hr)) as [g Hg].
  rewrite <- Hg, obs_relabel in Hin. apply in_map_iff in Hin as (o' & <- & Hin).
  exists g, o'. split; [reflexivity|].
  assert (Hp : pc s < length c).
  { destruct (Nat.lt_ge_cases (pc s) (length c)) as [|Hge]; [assumption|exfalso].
    unfold obs, at_ in Hin. cbn [erase smap pc] in Hin. rewrite nth_overflow in Hin by exact Hge. destruct Hin. }
  pose proof (check_pc_of _ _ _ _ _ _ Hc Hp) as Hk. unfold check_pc in Hk.
  rewrite (cert_sound _ _ _ _ _ Hc _ Hr) in Hk. apply andb_true_iff in Hk as [_ Hk].
  rewrite forallb_forall in Hk. exact (Hk _ Hin).
Qed.

Theorem analysis_exact v k c t ct : checkk v k c t ct = true ->
  forall s, reach v c t s ->
  forall running lasti st tr, In (running, lasti, st, tr) (obs c s) ->
  (k = KSusp /\ running = false) \/ (k = KRun /\ running = true) ->
  trickery v c t running lasti st = TOk (expected tr).
Proof.
  intros Hc s Hr r l st tr Hin Hsel.
  destruct (obs_reach _ _ _ _ _ Hc _ Hr _ Hin) as (g & [[[r' l'] est] etr] & [= -> -> -> ->] & Hk).
  assert (Hok : obs_ok v c t (r', l', est, etr) = true)
    by (cbn [obs_check] in Hk; destruct Hsel as [[-> ->]|[-> ->]]; exact Hk).
  cbn [obs_ok] in Hok. destruct (trickery v c t r' l' est) as [lc| |] eqn:Et; try discriminate.
  apply list_eqb_eq in Hok; [|apply ctxv_eqb_eq]. subst lc.
  rewrite trickery_relabel, Et, expected_relabel. reflexivity.
Qed.
Print Assumptions analysis_exact.

(* how the examples of C01 / C02 / C20 exhibit a reachable state: a path of (fresh instance,
   index of the chosen successor) pairs *)
Fixpoint exec (v : pyver) (c : code) (t : table) (path : list (nat * nat)) (s : state nat) : option (state nat) :=
  match path with
  | [] => Some s
  | (fresh, k) :: r =>
      match trans v c t fresh s with
      | Some succs => match nth_error succs k with Some s' => exec v c t r s' | None => None end
      | None => None
      end
  end.

Lemma exec_reach v c t path : forall s s', reach v c t s -> exec v c t path s = Some s' -> reach v c t s'.
Proof.
  induction path as [|[fresh k] r IH]; intros s s' Hr H; cbn [exec] in H.
  - inversion H; subst; exact Hr.
  - destruct (trans v c t fresh s) as [succs|] eqn:Et; [|discriminate].
    destruct (nth_error succs k) as [s1|] eqn:En; [|discriminate].
    eapply IH; [|exact H]. eapply reach_step; eauto. eapply nth_error_In; eauto.
Qed.
