Require Import Base M_Format P_Format.
From Coq Require Import NArith String.
From SS.gen Require Import SrcFacts.

(* Reading the structured lines back recovers the visible skeleton, for ALL trees and option
   sets.  [read_back] takes its fuel from the text itself (1 + longest marker chain; fuel only
   bounds the nesting depth) and never runs out on formatted text. *)
Theorem C18_roundtrip : forall o t,
  read_back (fmt_stack_sl o t) = Some (skeleton_visible o t).
Proof. exact roundtrip. Qed.
Print Assumptions C18_roundtrip.

(* The strings the code composes (marker strings prepended, startswith / strip tests on the
   characters) are exactly the marker-wise rendering of the structured lines; holds for all
   payloads, with the marker table regenerated from _types.py. *)
Theorem C18_string_level : forall o t,
  fmt_stack_str o t = map (render (M_Format.ascii o)) (fmt_stack_sl o t).
Proof. exact str_is_render. Qed.
Print Assumptions C18_string_level.

(* the marker strings regenerated from the source: two characters each, child indicator =
   start_child and different from every other marker that can stand in the tested column,
   ASCII table is ASCII *)
Theorem C18_markers_wf : markers_wf = true.
Proof. vm_compute. reflexivity. Qed.
Print Assumptions C18_markers_wf.

(* ascii_only=True changes nothing but the spelling of the markers: both outputs are the same
   structured lines, rendered with the ascii resp. the unicode marker table, and the ascii
   markers are ASCII *)
Theorem C18_ascii_homomorphic : forall o t,
  fmt_stack_str (with_ascii true o) t = map (render true) (fmt_stack_sl o t)
  /\ fmt_stack_str (with_ascii false o) t = map (render false) (fmt_stack_sl o t)
  /\ (forall m, forallb (fun c => N.ltb c 128) (mstr true m) = true).
Proof.
  intros o t. split; [|split].
  - apply (str_is_render (with_ascii true o)).
  - apply (str_is_render (with_ascii false o)).
  - intros m. destruct m; reflexivity.
Qed.
Print Assumptions C18_ascii_homomorphic.

(* what the text shows of hidden items: a frame is read back iff it is not hidden or
   show_hidden_frames is set; the contexts of a frame iff show_contexts is set, and then each
   iff it is not hidden or show_hidden_frames is set *)
Theorem C18_hidden_iff : forall o r fs lf er,
  exists lf' er',
    read_back (fmt_stack_sl o (Stk r fs lf er))
    = Some (header_text r,
            SkStack (map (sk_of_frame o) (filter (fun f => negb (f_hide f) || show_hidden o) fs)) lf' er')
  /\ forall f, sk_of_frame o f
     = SkFrame (frame_header f)
               (if show_ctx o
                then map (sk_of_ctx o true true) (filter (fun c => negb (c_hide c) || show_hidden o) (f_ctxs f))
                else [])
               (if last_exiting (f_ctxs f) then None
                else if nonempty (frame_linetext f) then Some (frame_linetext f ++ nl) else None).
Proof.
  intros o r fs lf er. eexists. eexists. split.
  - rewrite roundtrip. unfold skeleton_visible. rewrite sk_body_eq. reflexivity.
  - intros f. rewrite sk_of_frame_eq. unfold vctxs. destruct (show_ctx o); reflexivity.
Qed.
Print Assumptions C18_hidden_iff.

(* show_contexts=False: the output is the header, per visible frame its line and (unless its last
   context is exiting) its source line, then leaf and error -- no context line anywhere *)
Theorem C18_no_contexts_is_frame_series : forall o r fs lf er,
  show_ctx o = false ->
  fmt_stack_sl o (Stk r fs lf er) =
  ([], header_text r)
  :: flat_map (fun f => if vis o (f_hide f)
                        then ([SF], frame_header f) :: map (sl_add CF) (code_lines sline sl_lit sl_add f)
                        else []) fs
  ++ leaf_lines sline sl_lit sl_add lf ++ err_lines sline sl_lit sl_add er.
Proof.
  intros o r fs lf er H.
  change (fmt_stack_sl o (Stk r fs lf er)) with (sl_lit (header_text r) :: fmt_body_sl o (Stk r fs lf er)).
  rewrite B_eq. do 2 f_equal. symmetry. apply flat_map_vis. intros f. rewrite Fm_eq. unfold vctxs. rewrite H. reflexivity.
Qed.
Print Assumptions C18_no_contexts_is_frame_series.

(* str(x) is by definition the concatenation of format() (Formattable.__str__); the harness
   checks the implementation side of this on every case *)
Theorem C18_str_is_concat : forall t,
  str_of t = List.concat (fmt_stack_str {| M_Format.ascii := false; show_ctx := true; show_hidden := false |} t).
Proof. intros; reflexivity. Qed.
Print Assumptions C18_str_is_concat.

(* For all trees whose payloads other than the error text (root/leaf reprs, names, source lines,
   descriptions, type names) contain no "\n" -- the negation of F12's signature -- every
   element of format() ends with "\n" and contains no other "\n".  The error text is
   unconstrained: str.splitlines() pieces are re-terminated by the code (fix of F20). *)
Theorem C18_newline_terminated : forall o t,
  clean_stack t = true -> single_lines (fmt_stack_str o t) = true.
Proof.
  intros o t Hc. rewrite str_is_render. apply forallb_forall. intros x Hx. apply in_map_iff in Hx as [l [<- Hl]].
  apply render_oneline. exact (proj1 (Forall_forall _ _) (lines_oneline o t Hc) l Hl).
Qed.
Print Assumptions C18_newline_terminated.

(* the hypothesis is met by a tree with contexts whose error text contains \r, \n, \x85, \u2028 *)
Example C18_newline_terminated_example :
  let t := Stk (Some (a "<root>"))
               [Frm (a "f") None (Some (a "m")) (a "x.py") 3%N (a "return 1") [] false false
                    [Ctx (Some (a "T")) false false (Some (a "v")) (Some 2%N) (Some (a "d")) (a "with t() as v:") [] []
                         (Some (Stk None [] (Some (a "leaf")) (Some [a "ValueError: a" ++ [13%N] ++ a "b" ++ [10%N; 133%N] ++ a "c" ++ [8232%N] ++ nl]))) [] false]]
               None (Some [a "KeyError: x" ++ [13%N; 10%N] ++ a "y" ++ [13%N]]) in
  clean_stack t = true
  /\ List.length (fmt_stack_str {| M_Format.ascii := false; show_ctx := true; show_hidden := false |} t) = 14.
Proof. vm_compute. split; reflexivity. Qed.

(* known finding F12: a leaf repr that contains a newline gives an element of format() that is
   not a single line *)
Theorem C18_F12_refuted : exists t o, single_lines (fmt_stack_str o t) = false.
Proof. exists (Stk None [] (Some (a "<ML" ++ [10%N] ++ a "line2>")) None), uni. vm_compute. reflexivity. Qed.
Print Assumptions C18_F12_refuted.

(* String-level lexing, unicode mode.  A rendered line determines its structured line (marker
   chain, body) uniquely, provided the chain has the shape the formatter builds (C18_chain_shape:
   it always has), the body does not start with a marker string, and an error line is not empty. *)
Theorem C18_unicode_lex_unique : forall l1 l2,
  lex_ok l1 = true -> lex_ok l2 = true -> render false l1 = render false l2 -> l1 = l2.
Proof.
  intros [ms1 b1] [ms2 b2] H1 H2 E. unfold lex_ok in *. simpl in *.
  apply andb_true_iff in H1 as [H1 F1]. apply andb_true_iff in H1 as [C1 N1].
  apply andb_true_iff in H2 as [H2 F2]. apply andb_true_iff in H2 as [C2 N2].
  destruct (render_inj_canon ms1 ms2 b1 b2 F1 F2 E) as [Ec ->]. f_equal.
  eapply canon_chain_unique; eauto.
Qed.
Print Assumptions C18_unicode_lex_unique.

(* every line of every formatted tree: ERR only as the last marker, continue_child as the last
   marker only on a blank line, the child indicator never prepended *)
Theorem C18_chain_shape : forall o t,
  Forall (fun l => chain_ok (fst l) (snd l) = true) (fmt_stack_sl o t).
Proof. intros o t. constructor; [reflexivity|]. apply chain_all. Qed.
Print Assumptions C18_chain_shape.

Example C18_lex_ok_example :
  lex_ok ([CF; CCX; CC; SF], a "f in m at x.py:3" ++ nl) = true
  /\ lex_ok ([CF; CCX; ERR], a "ValueError: x" ++ nl) = true
  /\ lex_ok ([CF; CCX; CC], nl) = true.
Proof. vm_compute. repeat split. Qed.

(* the one line-level ambiguity of unicode mode (the hypothesis err_nb above): an empty error
   line under a context = the blank line around a populated child stack; both occur *)
Theorem C18_lex_blank_refuted :
  let l1 := ([CF; CCX; ERR], nl) in let l2 := ([CF; CCX; CC], nl) in
  existsb (sline_eqb l1) (fmt_stack_sl uni amb_t1) = true
  /\ existsb (sline_eqb l2) (fmt_stack_sl uni amb_t2) = true
  /\ render false l1 = render false l2 /\ l1 <> l2
  /\ chain_ok (fst l1) (snd l1) = true /\ chain_ok (fst l2) (snd l2) = true
  /\ bfree (snd l1) = true /\ err_nb (fst l1) (snd l1) = false.
Proof. vm_compute. repeat split; discriminate. Qed.
Print Assumptions C18_lex_blank_refuted.

(* ascii mode is ambiguous as a whole text: start_frame = start_leaf = "+ ", so a one-frame stack
   and a frame-less stack whose leaf's repr spells that frame's line print the same characters
   with different skeletons (unicode mode tells them apart) *)
Theorem C18_ascii_ambiguous_refuted :
  fmt_stack_str asc_o asc_t1 = fmt_stack_str asc_o asc_t2
  /\ skeleton_visible asc_o asc_t1 <> skeleton_visible asc_o asc_t2
  /\ fmt_stack_str uni asc_t1 <> fmt_stack_str uni asc_t2.
Proof. vm_compute. repeat split; discriminate. Qed.
Print Assumptions C18_ascii_ambiguous_refuted.

(* a non-trivial tree: frame with a context that has an inner stack, a hidden child context, a
   stub and a populated child stack *)
Definition ex_frame (cs : list context) : frame :=
  Frm (a "f") None (Some (a "m")) (a "x.py") 3%N (a "return 1") [] false false cs.
Definition ex_ctx (h : bool) (inn : option stack) (ks : list child) : context :=
  Ctx (Some (a "T")) false false (Some (a "v")) (Some 2%N) (Some (a "d")) (a "with t() as v:") [] [] inn ks h.
Definition ex_tree : stack :=
  Stk (Some (a "<root>"))
      [ex_frame [ex_ctx false (Some (Stk None [ex_frame []] (Some (a "leaf")) None))
                   [KCtx (ex_ctx true None []); KStk (Stk None [] None None);
                    KStk (Stk (Some (a "<t>")) [ex_frame []] None (Some [a "ValueError: x" ++ nl]))]]]
      None None.
Example C18_roundtrip_example :
  read_back (fmt_stack_sl {| M_Format.ascii := false; show_ctx := true; show_hidden := false |} ex_tree)
  = Some (skeleton_visible {| M_Format.ascii := false; show_ctx := true; show_hidden := false |} ex_tree)
  /\ List.length (fmt_stack_sl {| M_Format.ascii := false; show_ctx := true; show_hidden := false |} ex_tree) = 15.
Proof. vm_compute. repeat split; repeat constructor. Qed.
