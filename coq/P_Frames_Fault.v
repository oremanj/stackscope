(* P_Frames_Fault.v — C05.  Two passes over the interpreter.  Whatever the guards and the outcome,
   ticks advance and error lists grow ([*_adv]).  With every call site guarded no exception escapes,
   and a run that does not run out of fuel moves (child stacks, errors, tick) only by the few moves
   of [evo] ([*_evo]).  Exactness, order and location of the reported faults are then inductions
   over [evo]. *)
Require Import Base M_Frames M_Frames_Fault P_Frames_Step.
From SS.gen Require Import SrcFacts.

Lemma src_guards_all : src_guards = all_guards.
Proof. reflexivity. Qed.

Lemma all_guards_fields c :
  grd c = all_guards ->
  g_unwrap (grd c) = true /\ g_iter (grd c) = true /\ g_ctx (grd c) = true
  /\ g_fill (grd c) = true /\ g_elab (grd c) = true.
Proof. intros ->. repeat split. Qed.

Definition runner_total (runner : item -> nat -> outcome * nat) : Prop :=
  forall k t e, fst (runner k t) <> Raised e.

Lemma run_kids_total runner : runner_total runner -> forall kids acc t ks e t',
  run_kids runner kids acc t <> (ks, Some (Raised e), t').
Proof.
  intros Hr kids acc t ks e t' H. apply run_kids_bad in H. destruct H as (k & t0 & E & _).
  apply (Hr k t0 e). rewrite E. reflexivity.
Qed.

Definition grows {A} (l l' : list A) : Prop := exists n, l' = n ++ l.

Lemma grows_refl {A} (l : list A) : grows l l.
Proof. exists []. reflexivity. Qed.
Lemma grows_cons {A} (x : A) l : grows l (x :: l).
Proof. exists [x]. reflexivity. Qed.
Lemma grows_trans {A} (a b c : list A) : grows a b -> grows b c -> grows a c.
Proof. intros [n ->] [m ->]. exists (m ++ n). rewrite app_assoc. reflexivity. Qed.
Lemma grows_rev {A} (l l' : list A) : grows l l' -> exists n, rev l' = rev l ++ n.
Proof. intros [n ->]. exists (rev n). apply rev_app_distr. Qed.

Definition adv (errs : list err) (t : nat) (errs' : list err) (t' : nat) : Prop :=
  grows errs errs' /\ t <= t'.

Lemma adv_refl errs t : adv errs t errs t.
Proof. split; [apply grows_refl|lia]. Qed.
Lemma adv_trans e0 t0 e1 t1 e2 t2 : adv e0 t0 e1 t1 -> adv e1 t1 e2 t2 -> adv e0 t0 e2 t2.
Proof. intros [G1 L1] [G2 L2]. split; [eapply grows_trans; eassumption|lia]. Qed.
Lemma adv_tick errs t t' : t <= t' -> adv errs t errs t'.
Proof. split; [apply grows_refl|assumption]. Qed.
Lemma adv_err errs t e t' : t <= t' -> adv errs t (e :: errs) t'.
Proof. split; [apply grows_cons|assumption]. Qed.
(* [le_S] and [le_n] are there for the side condition t <= S t of [adv_tick] and [adv_err] *)
#[export] Hint Resolve adv_refl adv_tick adv_err le_S le_n : adv.

Lemma iter_steps_lt c o : forall l raises t k e t', iter_steps c o l raises t = (k, e, t') -> t < t'.
Proof.
  induction l as [|i l IH]; intros raises t k e t' H; simpl in H;
    (destruct (fault c t); [inversion H; lia|]); [inversion H; lia|].
  destruct (iter_steps c o l raises (S t)) as [[k1 e1] t1] eqn:E. apply IH in E. inversion H; lia.
Qed.

Lemma unwrap_head_adv cnt c cur errs t :
  match unwrap_head cnt c cur errs t with
  | ULeaf errs' t' | UPush _ errs' t' => adv errs t errs' t'
  | UFail _ => True
  end.
Proof.
  unfold unwrap_head.
  destruct cur as [f|f o|o|]; auto with adv; destruct (fault c t), (g_unwrap (grd c)); auto with adv.
  1,2: destruct (unwrap c o) as [|i|l|l b|]; auto with adv; destruct (uguard c <? S cnt); auto with adv;
    destruct (iter_steps c o l b (S t)) as [[k e] t2] eqn:E; apply iter_steps_lt in E;
    assert (L : t <= t2) by lia; destruct e; try destruct (g_iter (grd c)); auto with adv.
  all: destruct (uguard c <? S cnt); auto with adv.
Qed.

Lemma flatten_adv fuel : forall cnt c tu te errs t te' errs' t',
  flatten fuel cnt c tu te errs t = FlOk te' errs' t' -> adv errs t errs' t'.
Proof.
  induction fuel as [|fuel IH]; intros cnt c tu te errs t te' errs' t' H; [discriminate|].
  destruct tu as [|[[org cur] d] tu']; [inversion H; apply adv_refl|].
  rewrite flatten_cons in H. pose proof (unwrap_head_adv cnt c cur errs t) as A.
  destruct (unwrap_head cnt c cur errs t); [| |discriminate];
    (eapply adv_trans; [exact A|eapply IH; eassumption]).
Qed.

Definition runner_mono (runner : item -> nat -> outcome * nat) : Prop :=
  forall k t o t', runner k t = (o, t') -> t <= t'.

Lemma run_kids_mono runner : runner_mono runner -> forall kids acc t ks ob t',
  run_kids runner kids acc t = (ks, ob, t') -> t <= t'.
Proof.
  intros Hm. induction kids as [|k r IH]; intros acc t ks ob t' H; simpl in H.
  - inversion H; subst. lia.
  - destruct (runner k t) as [o t1] eqn:E. apply Hm in E.
    destruct o; [apply IH in H; lia| |]; inversion H; subst; assumption.
Qed.

Lemma fill_all_adv c runner : runner_mono runner -> forall l acc errs t cx errs' t' ob,
  fill_all c runner l acc errs t = (cx, errs', t', ob) -> adv errs t errs' t'.
Proof.
  intros Hm. induction l as [|cid r IH]; intros acc errs t cx errs' t' ob H; simpl in H.
  { inversion H; subst. apply adv_refl. }
  assert (F : forall e ks t0, t <= t0 ->
    (if g_fill (grd c) then fill_all c runner r (COut cid ks :: acc) (e :: errs) t0
     else (rev acc, errs, t0, Some (Raised e))) = (cx, errs', t', ob) -> adv errs t errs' t').
  { intros e ks t0 L E. destruct (g_fill (grd c)).
    - eapply adv_trans; [apply (adv_err errs t e t0 L)|eapply IH; eassumption].
    - inversion E; subst. apply adv_tick, L. }
  destruct (fault c t); [eapply F; [|eassumption]; lia|].
  destruct (fill c cid) as [kids|]; [|eapply F; [|eassumption]; lia].
  destruct (run_kids runner kids [] (S t)) as [[ks ob1] t1] eqn:Ek. apply (run_kids_mono runner Hm) in Ek.
  destruct ob1 as [[s|e|]|]; [| eapply F; [|eassumption]; lia | |].
  1,2: inversion H; subst; apply adv_tick; lia.
  eapply adv_trans; [apply (adv_tick errs t t1); lia|eapply IH; eassumption].
Qed.

Lemma ctx_step_adv c runner f errs t cx errs' t' ob : runner_mono runner ->
  ctx_step c runner f errs t = (cx, errs', t', ob) -> adv errs t errs' t'.
Proof.
  unfold ctx_step. intros Hm H.
  destruct (negb (with_ctx c)); [inversion H; apply adv_refl|].
  assert (F : forall e, (if g_ctx (grd c) then ([], e :: errs, S t, None)
                         else ([], errs, S t, Some (Raised e))) = (cx, errs', t', ob) -> adv errs t errs' t').
  { intros e E. destruct (g_ctx (grd c)); inversion E; auto with adv. }
  destruct (fault c t); [eapply F; eassumption|].
  destruct (ctxs c f); [|eapply F; eassumption].
  eapply adv_trans; [apply (adv_tick errs t (S t)); lia|eapply fill_all_adv; eassumption].
Qed.

Lemma elab_step_adv c f errs t r errs' h t' oe :
  elab_step c f errs t = (r, errs', h, t', oe) -> grows errs errs' /\ t' = S t.
Proof.
  unfold elab_step. destruct (fault c t), (g_elab (grd c)), (elab c f); intros [= _ <- _ <- _];
    split; auto using grows_refl, grows_cons.
Qed.

Lemma run_adv fuel : forall first c tu te errs out t o t',
  run fuel first c tu te errs out t = (o, t') ->
  t <= t' /\ forall frs lf es, o = Ok (Stack frs lf es) ->
             (exists nf, frs = rev out ++ nf) /\ (exists ne, es = rev errs ++ ne).
Proof.
  induction fuel as [|fuel IH]; intros first c tu te errs out t o t' H.
  { inversion H. split; [lia|discriminate]. }
  assert (Stop : forall errs1 out1 lf,
    grows errs errs1 -> grows out out1 -> forall frs lf0 es, Ok (Stack (rev out1) lf (rev errs1)) = Ok (Stack frs lf0 es) ->
    (exists nf, frs = rev out ++ nf) /\ (exists ne, es = rev errs ++ ne)).
  { intros errs1 out1 lf G1 G2 frs lf0 es E. inversion E; subst. split; apply grows_rev; assumption. }
  rewrite run_S in H. unfold run_step in H.
  destruct (flatten (S fuel) 0 c tu (rev te) errs t) as [te1 errs1 t1|e1|] eqn:Efl;
    [|inversion H; split; [lia|discriminate]..].
  apply flatten_adv in Efl. destruct Efl as [G1 L1].
  destruct te1 as [|[[f|f org|o1|] d] rest];
    try (inversion H; subst; split; [assumption|apply Stop; [assumption|apply grows_refl]]).
  assert (Hm : runner_mono (child_of (run fuel) c)) by (intros k t0 o0 t0' E; apply IH in E; tauto).
  destruct (ctx_step c (child_of (run fuel) c) f errs1 t1) as [[[cx errs2] t2] ob] eqn:Ecx.
  pose proof (ctx_step_adv _ _ _ _ _ _ _ _ _ Hm Ecx) as [G2 L2].
  destruct ob as [bad|].
  { inversion H; subst. split; [lia|]. intros frs lf es E. exfalso. eapply ctx_step_bad_not_ok; eauto. }
  destruct (elab_step c f errs2 t2) as [[[[r errs3] hide] t3] oe] eqn:Eel.
  apply elab_step_adv in Eel. destruct Eel as [G3 ->].
  assert (G : grows errs errs3) by (eapply grows_trans; [eassumption|eapply grows_trans; eassumption]).
  destruct oe; [inversion H; split; [lia|discriminate]|].
  cbv zeta in H. destruct first.
  { injection H as <- <-. split; [lia|]. apply (Stop errs3 (FOut f hide org cx :: out)); [assumption|apply grows_cons]. }
  apply IH in H. destruct H as [L4 H]. split; [lia|]. intros frs lf es E.
  destruct (H frs lf es E) as [[nf ->] [ne ->]]. split.
  - exists (FOut f hide org cx :: nf). simpl. rewrite <- app_assoc. reflexivity.
  - destruct (grows_rev _ _ G) as [n ->]. exists (n ++ ne). rewrite app_assoc. reflexivity.
Qed.

Lemma run_keeps fuel first c tu te errs out t frs lf es t' :
  run fuel first c tu te errs out t = (Ok (Stack frs lf es), t') ->
  (exists nf, frs = rev out ++ nf) /\ (exists ne, es = rev errs ++ ne).
Proof. intros H. eapply run_adv; [exact H|reflexivity]. Qed.

(* How a successful, fully guarded run moves (K, errs, t): the child Stacks hanging in the
   structure built so far, the errors recorded so far, the tick. *)

Definition not_fault (e : err) : Prop := match e with EFault _ => False | _ => True end.

(* k is the result of an extract_child run started with empty lists at tick a, ended at b *)
Definition fresh_run (c : cfg) (k : stack) (a b : nat) : Prop :=
  exists fuel' item, run fuel' false c (root_q c item) [] [] [] a = (Ok k, b).

(* A hook invocation that does not fault consumes its tick; one that faults also records that
   tick; an error of the tables is recorded without a tick of its own; a child extraction is
   itself such an evolution, started from nothing, whose Stack is hung into the structure while
   the errors around it stay as they are.  [K] is read up to order. *)
Inductive evo (c : cfg) : list stack -> list err -> nat -> list stack -> list err -> nat -> Prop :=
  | evo_refl K errs t : evo c K errs t K errs t
  | evo_trans K0 e0 t0 K1 e1 t1 K2 e2 t2 :
      evo c K0 e0 t0 K1 e1 t1 -> evo c K1 e1 t1 K2 e2 t2 -> evo c K0 e0 t0 K2 e2 t2
  | evo_tick K errs t : fault c t = false -> evo c K errs t K errs (S t)
  | evo_fault K errs t : fault c t = true -> evo c K errs t K (EFault t :: errs) (S t)
  | evo_err K errs t e : not_fault e -> evo c K errs t K (e :: errs) t
  | evo_perm K K' errs t : (forall k, In k K <-> In k K') -> evo c K errs t K' errs t
  | evo_kid K errs t s Ks es t' :
      fresh_run c s t t' -> evo c [] [] t Ks es t' ->
      s_errs s = rev es -> (forall k, In k (s_children s) <-> In k Ks) ->
      evo c K errs t (s :: K) errs t'.

Definition traced (c : cfg) (K0 : list stack) (errs : list err) (t : nat) (s : stack) (t' : nat) : Prop :=
  exists K es, evo c K0 errs t K es t' /\ s_errs s = rev es /\ forall k, In k (s_children s) <-> In k K.

Lemma evo_tick_err c K errs t e : fault c t = false -> not_fault e -> evo c K errs t K (e :: errs) (S t).
Proof. intros F N. eapply evo_trans; [apply evo_tick, F|apply evo_err, N]. Qed.

Lemma traced_after c K0 e0 t0 K1 e1 t1 s t' :
  evo c K0 e0 t0 K1 e1 t1 -> traced c K1 e1 t1 s t' -> traced c K0 e0 t0 s t'.
Proof. intros E (K & es & E' & H). exists K, es. split; [eapply evo_trans; eassumption|exact H]. Qed.

Lemma flat_map_rev_in {A B} (g : A -> list B) l x : In x (flat_map g (rev l)) <-> In x (flat_map g l).
Proof.
  rewrite !in_flat_map. split; intros (y & Hy & Hx); exists y; split; auto; [apply in_rev|apply -> in_rev]; assumption.
Qed.

Lemma fill_all_acc_in c runner : forall l acc errs t cx errs' t' k,
  fill_all c runner l acc errs t = (cx, errs', t', None) -> In k (couts_kids acc) -> In k (couts_kids cx).
Proof.
  induction l as [|cid r IH]; intros acc errs t cx errs' t' k H Hin; simpl in H.
  { inversion H; subst. apply flat_map_rev_in, Hin. }
  assert (Rec : forall ks errs0 t0,
    fill_all c runner r (COut cid ks :: acc) errs0 t0 = (cx, errs', t', None) -> In k (couts_kids cx)).
  { intros ks errs0 t0 E. apply (IH _ _ _ _ _ _ _ E). simpl. apply in_or_app. right. exact Hin. }
  assert (F : forall e ks t0,
    (if g_fill (grd c) then fill_all c runner r (COut cid ks :: acc) (e :: errs) t0
     else (rev acc, errs, t0, Some (Raised e))) = (cx, errs', t', None) -> In k (couts_kids cx)).
  { intros e ks t0 E. destruct (g_fill (grd c)); [eapply Rec; exact E|discriminate]. }
  destruct (fault c t); [eapply F; eassumption|]. destruct (fill c cid) as [kids|]; [|eapply F; eassumption].
  destruct (run_kids runner kids [] (S t)) as [[ks [[s|e|]|]] t1];
    [discriminate|eapply F; eassumption|discriminate|eapply Rec; eassumption].
Qed.

Lemma traced_stop c out errs t lf :
  traced c (fouts_kids out) errs t (Stack (rev out) lf (rev errs)) t.
Proof.
  exists (fouts_kids out), errs. split; [apply evo_refl|]. split; [reflexivity|].
  intros k. apply flat_map_rev_in.
Qed.

Lemma iter_steps_evo c K o errs : forall l raises t k e t',
  iter_steps c o l raises t = (k, e, t') ->
  evo c K errs t K (match e with Some e => e :: errs | None => errs end) t'.
Proof.
  induction l as [|i l IH]; intros raises t k e t' H; simpl in H; destruct (fault c t) eqn:F;
    try (inversion H; subst; apply evo_fault, F).
  - destruct raises; inversion H; subst; [apply evo_tick_err; [exact F|exact I]|apply evo_tick, F].
  - destruct (iter_steps c o l raises (S t)) as [[k1 e1] t1] eqn:E. inversion H; subst.
    eapply evo_trans; [apply evo_tick, F|eapply IH; eassumption].
Qed.

(* From here on every call site is guarded.  Then no exception escapes, and what a step returns
   when it does not run out of fuel is reached by an evolution: one induction over each function
   shows both. *)

Lemma unwrap_head_evo cnt c K cur errs t :
  g_unwrap (grd c) = true -> g_iter (grd c) = true ->
  match unwrap_head cnt c cur errs t with
  | ULeaf errs' t' | UPush _ errs' t' => evo c K errs t K errs' t'
  | UFail _ => False
  end.
Proof.
  intros Hu Hi. unfold unwrap_head. rewrite Hu, Hi.
  destruct cur as [f|f o|o|]; try apply evo_refl; (destruct (fault c t) eqn:F; [apply evo_fault, F|]).
  - destruct (unwrap c o) as [|i|l|l b|]; try (destruct (uguard c <? S cnt));
      try (apply evo_tick_err; [exact F|exact I]); try (apply evo_tick, F).
    destruct (iter_steps c o l b (S t)) as [[k e] t2] eqn:E. apply (iter_steps_evo c K o errs) in E.
    destruct e; (eapply evo_trans; [apply evo_tick, F|exact E]).
  - destruct (uguard c <? S cnt); [apply evo_tick_err; [exact F|exact I]|apply evo_tick, F].
Qed.

Definition fl_evo (c : cfg) (K : list stack) (errs : list err) (t : nat) (r : fl_res) : Prop :=
  match r with FlOk _ errs' t' => evo c K errs t K errs' t' | FlRaised _ => False | FlFuel => True end.

Lemma fl_evo_after c K e0 t0 e1 t1 r : evo c K e0 t0 K e1 t1 -> fl_evo c K e1 t1 r -> fl_evo c K e0 t0 r.
Proof. destruct r; [apply evo_trans|auto..]. Qed.

Lemma flatten_evo K fuel : forall cnt c tu te errs t,
  g_unwrap (grd c) = true -> g_iter (grd c) = true -> fl_evo c K errs t (flatten fuel cnt c tu te errs t).
Proof.
  induction fuel as [|fuel IH]; intros cnt c tu te errs t Hu Hi; [exact I|].
  destruct tu as [|[[org cur] d] tu']; [apply evo_refl|].
  rewrite flatten_cons. pose proof (unwrap_head_evo cnt c K cur errs t Hu Hi) as A.
  destruct (unwrap_head cnt c cur errs t); [| |exact A]; (eapply fl_evo_after; [exact A|apply IH; assumption]).
Qed.

Definition guarded (c : cfg) (K : list stack) (errs : list err) (t : nat) (r : outcome * nat) : Prop :=
  match r with
  | (Ok s, t') => traced c K errs t s t'
  | (Raised _, _) => False
  | (OutOfFuel, _) => True
  end.

Lemma guarded_after c K0 e0 t0 K1 e1 t1 r :
  evo c K0 e0 t0 K1 e1 t1 -> guarded c K1 e1 t1 r -> guarded c K0 e0 t0 r.
Proof. destruct r as [[s|e|] t']; [apply traced_after|auto..]. Qed.

Definition runner_evo (c : cfg) (runner : item -> nat -> outcome * nat) : Prop :=
  forall k t, guarded c [] [] t (runner k t) /\
              forall s t', runner k t = (Ok s, t') -> fresh_run c s t t'.

Lemma run_kids_evo c runner K errs : runner_evo c runner -> forall kids acc t,
  match run_kids runner kids acc t with
  | (ks, None, t') => evo c (acc ++ K) errs t (rev ks ++ K) errs t'
  | (_, Some bad, _) => bad = OutOfFuel
  end.
Proof.
  intros Hr. induction kids as [|k r IH]; intros acc t; cbn [run_kids].
  - rewrite rev_involutive. apply evo_refl.
  - destruct (Hr k t) as [G F]. destruct (runner k t) as [[s|e|] t1]; [|destruct G|reflexivity].
    destruct G as (Ks & es & Es & Ee & Ek). specialize (IH (s :: acc) t1).
    destruct (run_kids runner r (s :: acc) t1) as [[ks [bad|]] t']; [exact IH|].
    eapply evo_trans; [eapply evo_kid; eauto|exact IH].
Qed.

Definition fill_evo (c : cfg) (K0 : list stack) (errs : list err) (t : nat) (K : list stack)
           (r : list cout * list err * nat * option outcome) : Prop :=
  match r with
  | (cx, errs', t', None) => evo c K0 errs t (couts_kids cx ++ K) errs' t'
  | (_, _, _, Some bad) => bad = OutOfFuel
  end.

Lemma fill_evo_after c K0 e0 t0 K1 e1 t1 K r :
  evo c K0 e0 t0 K1 e1 t1 -> fill_evo c K1 e1 t1 K r -> fill_evo c K0 e0 t0 K r.
Proof. destruct r as [[[cx errs'] t'] [bad|]]; [auto|apply evo_trans]. Qed.

Lemma fill_all_evo c runner K : runner_evo c runner -> g_fill (grd c) = true ->
  forall l acc errs t, fill_evo c (couts_kids acc ++ K) errs t K (fill_all c runner l acc errs t).
Proof.
  intros Hr Hg. induction l as [|cid r IH]; intros acc errs t; cbn [fill_all].
  { apply evo_perm. intros k. rewrite !in_app_iff. unfold couts_kids. rewrite flat_map_rev_in. tauto. }
  rewrite Hg.
  destruct (fault c t) eqn:Ft; [exact (fill_evo_after _ _ _ _ _ _ _ _ _ (evo_fault c _ errs t Ft) (IH (COut cid [] :: acc) _ _))|].
  destruct (fill c cid) as [kids|];
    [|exact (fill_evo_after _ _ _ _ _ _ _ _ _ (evo_tick_err c _ errs t (EFill cid) Ft I) (IH (COut cid [] :: acc) _ _))].
  pose proof (run_kids_evo c runner (couts_kids acc ++ K) errs Hr kids [] (S t)) as Ek.
  destruct (run_kids runner kids [] (S t)) as [[ks [b|]] t1]; [subst b; reflexivity|].
  eapply fill_evo_after; [|apply (IH (COut cid ks :: acc))].
  eapply evo_trans; [apply evo_tick, Ft|]. eapply evo_trans; [exact Ek|].
  apply evo_perm. intros k. simpl. rewrite !in_app_iff, <- in_rev. tauto.
Qed.

Lemma ctx_step_evo c runner K f errs t : runner_evo c runner ->
  g_fill (grd c) = true -> g_ctx (grd c) = true -> fill_evo c K errs t K (ctx_step c runner f errs t).
Proof.
  unfold ctx_step. intros Hr Hf Hc. rewrite Hc.
  destruct (negb (with_ctx c)); [apply evo_refl|].
  destruct (fault c t) eqn:Ft; [apply evo_fault, Ft|].
  destruct (ctxs c f); [|apply evo_tick_err; [exact Ft|exact I]].
  eapply fill_evo_after; [apply evo_tick, Ft|apply (fill_all_evo c runner K Hr Hf l [])].
Qed.

Lemma elab_step_evo c K f errs t : g_elab (grd c) = true ->
  match elab_step c f errs t with
  | (_, errs', _, t', None) => evo c K errs t K errs' t'
  | (_, _, _, _, Some _) => False
  end.
Proof.
  intros Hg. unfold elab_step. rewrite Hg.
  destruct (fault c t) eqn:Ft; [apply evo_fault, Ft|].
  destruct (elab c f); try (apply evo_tick, Ft). apply evo_tick_err; [exact Ft|exact I].
Qed.

Lemma run_evo fuel : forall first c tu te errs out t,
  grd c = all_guards -> guarded c (fouts_kids out) errs t (run fuel first c tu te errs out t).
Proof.
  induction fuel as [|fuel IH]; intros first c tu te errs out t Hg; [exact I|].
  destruct (all_guards_fields c Hg) as (Hu & Hi & Hc & Hf & He).
  rewrite run_S. unfold run_step.
  pose proof (flatten_evo (fouts_kids out) (S fuel) 0 c tu (rev te) errs t Hu Hi) as A.
  destruct (flatten (S fuel) 0 c tu (rev te) errs t) as [te1 errs1 t1|e1|]; [|destruct A|exact I].
  apply (guarded_after _ _ _ _ _ _ _ _ A).
  destruct te1 as [|[[f|f org|o|] d] rest]; try apply traced_stop.
  assert (Hr : runner_evo c (child_of (run fuel) c)).
  { intros k t0. split; [apply (IH false c _ [] [] [] t0 Hg)|]. intros s t0' E. exists fuel, k. exact E. }
  pose proof (ctx_step_evo c _ (fouts_kids out) f errs1 t1 Hr Hf Hc) as B.
  destruct (ctx_step c (child_of (run fuel) c) f errs1 t1) as [[[cx errs2] t2] [bad|]]; [unfold fill_evo in B; subst bad; exact I|].
  pose proof (elab_step_evo c (couts_kids cx ++ fouts_kids out) f errs2 t2 He) as C.
  destruct (elab_step c f errs2 t2) as [[[[r errs3] hide] t3] [e3|]]; [destruct C|].
  apply (guarded_after _ _ _ _ _ _ _ _ (evo_trans _ _ _ _ _ _ _ _ _ _ B C)).
  destruct first; [apply (traced_stop c (FOut f hide org cx :: out))|apply IH, Hg].
Qed.

Lemma run_total fuel first c tu te errs out t e :
  grd c = all_guards -> fst (run fuel first c tu te errs out t) <> Raised e.
Proof.
  intros Hg. pose proof (run_evo fuel first c tu te errs out t Hg) as G.
  destruct (run fuel first c tu te errs out t) as [[s|e0|] t']; [discriminate|destruct G|discriminate].
Qed.

Lemma run_traced fuel first c tu te errs out t s t' :
  grd c = all_guards ->
  run fuel first c tu te errs out t = (Ok s, t') -> traced c (fouts_kids out) errs t s t'.
Proof. intros Hg H. pose proof (run_evo fuel first c tu te errs out t Hg) as G. rewrite H in G. exact G. Qed.

Definition Fk (c : cfg) (a b k : nat) : Prop := a <= k < b /\ fault c k = true.

Lemma Fk_split c a m b k : a <= m -> m <= b -> (Fk c a b k <-> Fk c a m k \/ Fk c m b k).
Proof. unfold Fk. intros. split; [intros [? ?]; destruct (Nat.lt_ge_cases k m); [left|right]; split; auto; lia | intros [[? ?]|[? ?]]; split; auto; lia]. Qed.
Lemma Fk_none c a k : ~ Fk c a a k.
Proof. unfold Fk. lia. Qed.
Lemma Fk_tick_f c a k : fault c a = false -> ~ Fk c a (S a) k.
Proof. unfold Fk. intros H [H1 H2]. assert (k = a) by lia. subst. congruence. Qed.
Lemma Fk_tick_t c a k : fault c a = true -> (Fk c a (S a) k <-> k = a).
Proof. unfold Fk. intros H. split; [lia|intros ->; split; [lia|assumption]]. Qed.

(* [acct c X errs t X' errs' t']: going from tick t to t', the fault ticks present in the error
   list and in the structure built so far (X -> X') grew by exactly the faults fired in [t,t') *)
Definition acct (c : cfg) (X : list nat) (errs : list err) (t : nat)
           (X' : list nat) (errs' : list err) (t' : nat) : Prop :=
  t <= t' /\ forall x, In x (efaults errs' ++ X') <-> (In x (efaults errs ++ X) \/ Fk c t t' x).

Lemma acct_refl c X errs t : acct c X errs t X errs t.
Proof. split; [lia|]. intros x. split; [auto|intros [H|H]; [assumption|exfalso; eapply Fk_none; eauto]]. Qed.

Lemma acct_trans c X0 e0 t0 X1 e1 t1 X2 e2 t2 :
  acct c X0 e0 t0 X1 e1 t1 -> acct c X1 e1 t1 X2 e2 t2 -> acct c X0 e0 t0 X2 e2 t2.
Proof.
  intros [L1 H1] [L2 H2]. split; [lia|]. intros x.
  rewrite H2, H1, (Fk_split c t0 t1 t2 x L1 L2). tauto.
Qed.

Lemma acct_equiv c X X' errs t : (forall x, In x X <-> In x X') -> acct c X errs t X' errs t.
Proof.
  intros A. split; [lia|]. intros x. rewrite !in_app_iff, A.
  split; [auto|intros [H|H]; [assumption|exfalso; eapply Fk_none; eauto]].
Qed.

Lemma acct_tick_f c X errs t : fault c t = false -> acct c X errs t X errs (S t).
Proof.
  intros F. split; [lia|]. intros x. split; [auto|intros [H|H]; [assumption|exfalso; eapply Fk_tick_f; eauto]].
Qed.

Lemma acct_err c X errs t e : not_fault e -> acct c X errs t X (e :: errs) t.
Proof.
  intros N. split; [lia|]. intros x.
  assert (E : efaults (e :: errs) = efaults errs) by (destruct e; simpl in *; tauto).
  rewrite E. split; [auto|intros [H|H]; [assumption|exfalso; eapply Fk_none; eauto]].
Qed.

Lemma acct_tick_t c X errs t : fault c t = true -> acct c X errs t X (EFault t :: errs) (S t).
Proof.
  intros F. split; [lia|]. intros x. simpl. rewrite (Fk_tick_t c t x F). split.
  - intros [->|H]; auto.
  - intros [H| ->]; auto.
Qed.

Lemma acct_struct c X errs t1 t2 Y :
  t1 <= t2 -> (forall x, In x Y <-> Fk c t1 t2 x) -> acct c X errs t1 (Y ++ X) errs t2.
Proof.
  intros L H. split; [assumption|]. intros x. rewrite !in_app_iff, H. tauto.
Qed.

Lemma efaults_app a b : efaults (a ++ b) = efaults a ++ efaults b.
Proof. induction a as [|[] a IH]; simpl; auto. rewrite IH. reflexivity. Qed.

Lemma efaults_rev l : efaults (rev l) = rev (efaults l).
Proof.
  induction l as [|e l IH]; simpl; [reflexivity|]. rewrite efaults_app, IH.
  destruct e; simpl; try apply app_nil_r; reflexivity.
Qed.

Lemma couts_faults_kids cx : stacks_faults (couts_kids cx) = couts_faults cx.
Proof.
  induction cx as [|[cid ks] cx IH]; simpl; [reflexivity|].
  unfold stacks_faults in *. rewrite flat_map_app, IH. reflexivity.
Qed.

Lemma fouts_faults_kids fr : stacks_faults (fouts_kids fr) = fouts_faults fr.
Proof.
  induction fr as [|[f h o cx] fr IH]; simpl; [reflexivity|].
  unfold stacks_faults in *. rewrite flat_map_app, IH. f_equal. apply couts_faults_kids.
Qed.

Lemma tree_faults_eq fr lf es : tree_faults (Stack fr lf es) = efaults es ++ fouts_faults fr.
Proof.
  simpl. f_equal.
  induction fr as [|[f h o cx] fr IH]; simpl; [reflexivity|]. rewrite IH. f_equal.
  unfold couts_faults.
  induction cx as [|[cid ks] cx IHc]; simpl; [reflexivity|]. rewrite IHc. reflexivity.
Qed.

Lemma stacks_faults_same K K' : (forall k, In k K <-> In k K') ->
  forall x, In x (stacks_faults K) <-> In x (stacks_faults K').
Proof.
  intros A x. unfold stacks_faults. rewrite !in_flat_map.
  split; intros (k & Hk & Hx); exists k; (split; [apply A, Hk|exact Hx]).
Qed.

Lemma acct_tree c X errs t K es t' s :
  acct c X errs t (stacks_faults K) es t' ->
  s_errs s = rev es -> (forall k, In k (s_children s) <-> In k K) ->
  t <= t' /\ forall x, In x (tree_faults s) <-> (In x (efaults errs ++ X) \/ Fk c t t' x).
Proof.
  intros [L A] Ee Ek. split; [exact L|]. intros x. rewrite <- A.
  destruct s as [fr lf es0]. simpl in Ee, Ek. subst es0.
  rewrite tree_faults_eq, <- fouts_faults_kids, !in_app_iff, efaults_rev, <- in_rev.
  rewrite (stacks_faults_same _ _ Ek). tauto.
Qed.

Lemma evo_acct c K errs t K' errs' t' :
  evo c K errs t K' errs' t' -> acct c (stacks_faults K) errs t (stacks_faults K') errs' t'.
Proof.
  induction 1 as [| |K errs t F|K errs t F|K errs t e N|K K' errs t A|K errs t s Ks es t' F _ IH Ee Ek].
  - apply acct_refl.
  - eapply acct_trans; eassumption.
  - apply acct_tick_f, F.
  - apply acct_tick_t, F.
  - apply acct_err, N.
  - apply acct_equiv, stacks_faults_same, A.
  - destruct (acct_tree c _ _ _ _ _ _ s IH Ee Ek) as [L T].
    apply (acct_struct c (stacks_faults K) errs t t' (tree_faults s) L).
    intros x. rewrite T. simpl. tauto.
Qed.

Lemma run_acct fuel first c tu te errs out t s t' :
  grd c = all_guards ->
  run fuel first c tu te errs out t = (Ok s, t') ->
  t <= t' /\ forall x, In x (tree_faults s) <-> (In x (efaults errs ++ fouts_faults out) \/ Fk c t t' x).
Proof.
  intros Hg H. destruct (run_traced _ _ _ _ _ _ _ _ _ _ Hg H) as (K & es & E & Ee & Ek).
  rewrite <- fouts_faults_kids. exact (acct_tree c _ _ _ _ _ _ s (evo_acct _ _ _ _ _ _ _ E) Ee Ek).
Qed.

Fixpoint desc_below (b : nat) (l : list nat) : Prop :=
  match l with [] => True | x :: r => x < b /\ desc_below x r end.

Lemma desc_below_mono b b' l : b <= b' -> desc_below b l -> desc_below b' l.
Proof. destruct l; simpl; [auto|]. intros L [H1 H2]. split; [lia|assumption]. Qed.

Definition ord (errs : list err) (t : nat) : Prop := desc_below t (efaults errs).

Lemma evo_ord c K errs t K' errs' t' :
  evo c K errs t K' errs' t' -> t <= t' /\ (ord errs t -> ord errs' t').
Proof.
  unfold ord.
  induction 1 as [| |K errs t F|K errs t F|K errs t e N|K K' errs t A|K errs t s Ks es t' F _ IH Ee Ek].
  - split; [lia|auto].
  - split; [lia|tauto].
  - split; [lia|]. apply desc_below_mono. lia.
  - split; [lia|]. simpl. intros H. split; [lia|assumption].
  - split; [lia|]. destruct e; simpl in *; tauto.
  - split; [lia|auto].
  - split; [apply IH|]. apply desc_below_mono, IH.
Qed.

Lemma run_ord fuel first c tu te errs out t o t' :
  grd c = all_guards ->
  run fuel first c tu te errs out t = (o, t') ->
  t <= t' /\ forall frs lf es, o = Ok (Stack frs lf es) -> ord errs t -> desc_below t' (rev (efaults es)).
Proof.
  intros Hg H. split; [eapply run_adv; eassumption|]. intros frs lf es -> Ho.
  destruct (run_traced _ _ _ _ _ _ _ _ _ _ Hg H) as (K & es0 & E & Ee & _). simpl in Ee. subst es.
  rewrite efaults_rev, rev_involutive. apply (evo_ord _ _ _ _ _ _ _ E), Ho.
Qed.

(* the invariant of [evo] from which [located] is read off *)
Definition QL (c : cfg) (P : stack -> Prop) (errs : list err) (t : nat) : Prop :=
  (forall x, In x (efaults errs) -> x < t) /\
  forall k, P k -> exists a b, a <= b /\ b <= t /\ fresh_run c k a b
                               /\ forall x, In x (efaults errs) -> ~ (a <= x < b).

Lemma QL_equiv c (P P' : stack -> Prop) errs t : (forall k, P' k -> P k) -> QL c P errs t -> QL c P' errs t.
Proof. intros H [B Q]. split; [assumption|]. intros k Hk. apply Q, H, Hk. Qed.

Lemma QL_nf c P errs t e : not_fault e -> QL c P errs t -> QL c P (e :: errs) t.
Proof.
  intros N. assert (E : efaults (e :: errs) = efaults errs) by (destruct e; simpl in *; tauto).
  unfold QL. rewrite E. auto.
Qed.

Lemma QL_tick c P errs t t2 : t <= t2 -> QL c P errs t -> QL c P errs t2.
Proof.
  intros L [B Q]. split; [intros x Hx; apply B in Hx; lia|].
  intros k Hk. destruct (Q k Hk) as (a & b & L1 & L2 & F & A). exists a, b. repeat split; auto. lia.
Qed.

Lemma QL_fault c P errs t : QL c P errs t -> QL c P (EFault t :: errs) (S t).
Proof.
  intros [B Q]. split.
  - simpl. intros x [<-|Hx]; [lia|apply B in Hx; lia].
  - intros k Hk. destruct (Q k Hk) as (a & b & L1 & L2 & F & A). exists a, b. repeat split; auto.
    simpl. intros x [<-|Hx]; [lia|apply A; assumption].
Qed.

Lemma QL_kid c P errs t k b :
  QL c P errs t -> t <= b -> fresh_run c k t b -> QL c (fun x => k = x \/ P x) errs b.
Proof.
  intros [B Q] L F. split; [intros x Hx; apply B in Hx; lia|].
  intros k' [<-|Hk].
  - exists t, b. repeat split; auto. intros x Hx. apply B in Hx. lia.
  - destruct (Q k' Hk) as (a' & b' & M1 & M2 & F' & A). exists a', b'. repeat split; auto. lia.
Qed.

Lemma evo_QL c K errs t K' errs' t' :
  evo c K errs t K' errs' t' -> QL c (fun k => In k K) errs t -> QL c (fun k => In k K') errs' t'.
Proof.
  induction 1 as [| |K errs t F|K errs t F|K errs t e N|K K' errs t A|K errs t s Ks es t' F E _ Ee Ek]; intros Q.
  - exact Q.
  - auto.
  - apply (QL_tick c _ errs t); [lia|exact Q].
  - apply QL_fault, Q.
  - apply QL_nf; [exact N|exact Q].
  - apply (QL_equiv c (fun k => In k K)); [intros k; apply A|exact Q].
  - apply (QL_kid c _ errs t s t' Q); [apply (evo_ord _ _ _ _ _ _ _ E)|exact F].
Qed.

Definition located (c : cfg) (frs : list fout) (es : list err) : Prop :=
  forall k, In k (fouts_kids frs) ->
    exists a b, a <= b /\ fresh_run c k a b
                /\ (forall x, In x (tree_faults k) <-> Fk c a b x)
                /\ forall x, In x (efaults es) -> ~ (a <= x < b).

Lemma run_located fuel first c tu te errs out t frs lf es t' P :
  grd c = all_guards ->
  run fuel first c tu te errs out t = (Ok (Stack frs lf es), t') ->
  QL c P errs t -> (forall k, In k (fouts_kids out) -> P k) ->
  located c frs es.
Proof.
  intros Hg H Q Hout. destruct (run_traced _ _ _ _ _ _ _ _ _ _ Hg H) as (K & es0 & E & Ee & Ek).
  simpl in Ee, Ek. subst es.
  apply (QL_equiv c P (fun k => In k (fouts_kids out))) in Q; [|exact Hout].
  apply (evo_QL _ _ _ _ _ _ _ E) in Q. destruct Q as [_ Q].
  intros k Hk. destruct (Q k (proj1 (Ek k) Hk)) as (a & b & L1 & _ & F & A). exists a, b.
  split; [assumption|]. split; [assumption|]. split.
  - destruct F as (fuel' & item & F). apply run_acct in F; [|assumption]. destruct F as [_ F].
    intros y. rewrite F. simpl. tauto.
  - intros y Hy. apply A. rewrite efaults_rev, <- in_rev in Hy. exact Hy.
Qed.

Lemma dropge_spec d : forall q, exists p,
  q = p ++ dropge d q /\ Forall (fun e : qent => d <= snd e) p
  /\ match dropge d q with [] => True | e :: _ => snd e < d end.
Proof.
  induction q as [|[[o i] d'] q IH]; simpl.
  - exists []. repeat split; constructor.
  - destruct (d <=? d') eqn:E.
    + destruct IH as (p & Hq & Hp & Hd). exists ((o, i, d') :: p). repeat split; auto.
      * simpl. f_equal. assumption.
      * constructor; [apply Nat.leb_le in E; assumption|assumption].
    + exists []. repeat split; [constructor|]. simpl. apply Nat.leb_gt in E. assumption.
Qed.

Lemma elab_step_fail c f errs t :
  g_elab (grd c) = true -> (fault c t = true \/ elab c f = ERaise) ->
  elab_step c f errs t = (ESeq [], (if fault c t then EFault t else EElab f) :: errs, false, S t, None).
Proof.
  intros Hg H. unfold elab_step. rewrite Hg.
  destruct (fault c t); [reflexivity|]. destruct H as [H|H]; [discriminate|]. rewrite H. reflexivity.
Qed.
