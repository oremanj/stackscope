(* P_ExitStack.v — reference specification of property C09 and the proofs relating the model
   M_ExitStack (classifier over contextlib's attribute vectors, fuelled recursion through
   fill_context / extract_child) to it. *)
Require Import Base M_ExitStack.

(* The reference specification is written from the property text, by registration FORM; it never
   looks at what contextlib stored. *)

(* the registration hands over a manager, or a bound method whose receiver stands for it *)
Definition has_receiver (k : regkind) : bool :=
  match k with
  | KEnter | KPushMgr | KPushMeth | KEnterA | KPushAMgr | KPushAMeth => true
  | KPushFn _ | KCallback | KPushAFn _ | KACallback => false
  end.

(* "its sync/async kind" *)
Definition spec_async (k : regkind) : bool :=
  match k with KEnterA | KPushAMgr | KPushAFn _ | KPushAMeth | KACallback => true | _ => false end.

(* "in its description the registration method that was used" *)
Definition spec_meth (k : regkind) : meth :=
  match k with
  | KEnter => MEnter | KPushMgr | KPushFn _ | KPushMeth => MPush | KCallback => MCallback
  | KEnterA => MEnterA | KPushAMgr | KPushAFn _ | KPushAMeth => MPushA | KACallback => MACallback
  end.

Definition spec_await (k : regkind) : bool := match k with KEnterA => true | _ => false end.

(* argument text when the child has no description of its own *)
Definition spec_arg (k : regkind) : argk :=
  match k with
  | KEnter | KEnterA => AReprSelf
  | KCallback | KACallback => ACallArgs
  | _ => AFuncname
  end.

(* "identifying the registered manager or callable as obj": the manager (for a bound method: its
   receiver), else the callable as contextlib holds it *)
Definition spec_oid (k : regkind) (oself ocb : nat) : nat := if has_receiver k then oself else ocb.
Definition spec_sel (k : regkind) : osel := if has_receiver k then SelSelf else SelCallback.

Definition spec_cls (k : regkind) : cls :=
  {| c_sel := spec_sel k; c_await := spec_await k; c_meth := spec_meth k; c_arg := spec_arg k |}.

(* known finding F10: contextlib stores for these registrations the very same bound __exit__ /
   __aexit__ as for enter_context / enter_async_context *)
Definition f10 (k : regkind) (exitname : bool) : bool :=
  match k with
  | KPushMgr | KPushAMgr => true
  | KPushMeth | KPushAMeth => exitname
  | _ => false
  end.

(* fault containment: unfolding an exit stack needs the repr of every registered manager / bound-method
   receiver; if that fails (or the unfolding of such a child fails) the unfolding of the stack fails.
   Functions, callbacks and generator-based managers never make it fail. *)
Fixpoint spec_raises (m : mgr) : bool :=
  match m with
  | MStack cbs => existsb (fun c => match c with Cb k _ _ _ _ _ m' =>
                    has_receiver k && (is_faulty m' || spec_raises m') end) cbs
  | _ => false
  end.

Fixpoint spec_mgr (ex : bool) (root : rootk) (path : list nat) (i : kinfo) (oid : nat) (async : bool)
         (m : mgr) {struct m} : cout :=
  match m with
  | MPlain | MFaulty => COut oid async ex None [] i
  | MGen f => COut oid async ex (if ex then None else Some (spec_series f)) [] i
  | MStack cbs =>
      COut oid async ex None
        (mapi (fun idx c =>
           match c with
           | Cb k _ _ _ oself ocb m' =>
             if has_receiver k
             then spec_mgr false root (path ++ [idx])
                    (KChild SelSelf root path idx (spec_await k) (spec_meth k)
                            (if has_desc m' then AChildDesc else spec_arg k))
                    oself (spec_async k) m'
             else COut ocb (spec_async k) false None []
                    (KChild SelCallback root path idx (spec_await k) (spec_meth k) (spec_arg k))
           end) 0 cbs) i
  end
with spec_series (f : frm) {struct f} : list fout :=
  match f with
  | Frm code ws t =>
      (* a with-block whose unfolding fails is left bare; the other with-blocks of the frame are
         unfolded as if nothing had happened *)
      let cs := map (fun w => match w with Wth oid async named m =>
                       if spec_raises m then COut oid async false None [] KTop
                       else spec_mgr false (if named then RName else RUnderscore) [] KTop oid async m end) ws in
      match t with
      | TStop => [FOut code cs]
      | TDeleg g => FOut code cs :: spec_series g
      | TExit (Wth oid async named m) =>
          FOut code (cs ++ [if spec_raises m then COut oid async true None [] KTop
                            else spec_mgr true (if named then RName else RUnderscore) [] KTop oid async m])
          :: match m with MGen g => spec_series g | _ => [] end
      | TExitS (Wth oid async named m) cur =>
          (* an exit stack in the middle of exiting: the stack is exiting, the managers still
             registered are NOT (spec_mgr unfolds children with ex = false); the frames of the
             manager being exited follow in the main series *)
          FOut code (cs ++ [if spec_raises m then COut oid async true None [] KTop
                            else spec_mgr true (if named then RName else RUnderscore) [] KTop oid async m])
          :: match cur with MGen g => spec_series g | _ => [] end
      end
  end.

(* nesting depth (the fuel the model needs) *)
Fixpoint depth_mgr (m : mgr) : nat :=
  match m with
  | MPlain | MFaulty => 1
  | MGen f => S (depth_frm f)
  | MStack cbs => S (list_max (map (fun c => match c with Cb _ _ _ _ _ _ m' => depth_mgr m' end) cbs))
  end
with depth_frm (f : frm) : nat :=
  match f with
  | Frm _ ws t =>
      S (Nat.max (list_max (map (fun w => match w with Wth _ _ _ m => depth_mgr m end) ws))
                 match t with
                 | TStop => 0
                 | TDeleg g => depth_frm g
                 | TExit (Wth _ _ _ m) => depth_mgr m
                 | TExitS (Wth _ _ _ m) cur => Nat.max (depth_mgr m) (depth_mgr cur)
                 end)
  end.

(* hypotheses on a tree: every callback carries the attribute vector of the modelled contextlib map
   ([modelled_mgr] / [modelled_frm]) and no registration is one of the indistinguishable ones
   ([nof10_mgr] / [nof10_frm]) *)
Fixpoint modelled_mgr (m : mgr) : bool :=
  match m with
  | MPlain | MFaulty => true
  | MGen f => modelled_frm f
  | MStack cbs => forallb (fun c => match c with Cb k falsy x a _ _ m' =>
                     avec_eqb a (cl_attrs k falsy x) && modelled_mgr m' end) cbs
  end
with modelled_frm (f : frm) : bool :=
  match f with
  | Frm _ ws t =>
      forallb (fun w => match w with Wth _ _ _ m => modelled_mgr m end) ws &&
      match t with TStop => true | TDeleg g => modelled_frm g | TExit (Wth _ _ _ m) => modelled_mgr m
                 | TExitS (Wth _ _ _ m) cur => modelled_mgr m && modelled_mgr cur end
  end.

Fixpoint nof10_mgr (m : mgr) : bool :=
  match m with
  | MPlain | MFaulty => true
  | MGen f => nof10_frm f
  | MStack cbs => forallb (fun c => match c with Cb k _ x _ _ _ m' => negb (f10 k x) && nof10_mgr m' end) cbs
  end
with nof10_frm (f : frm) : bool :=
  match f with
  | Frm _ ws t =>
      forallb (fun w => match w with Wth _ _ _ m => nof10_mgr m end) ws &&
      match t with TStop => true | TDeleg g => nof10_frm g | TExit (Wth _ _ _ m) => nof10_mgr m
                 | TExitS (Wth _ _ _ m) cur => nof10_mgr m && nof10_mgr cur end
  end.

Lemma avec_eqb_eq a b : avec_eqb a b = true -> a = b.
Proof.
  destruct a, b; unfold avec_eqb; simpl. intros H.
  repeat (apply andb_true_iff in H; destruct H as [H ?]).
  repeat match goal with E : Bool.eqb _ _ = true |- _ => apply eqb_prop in E end.
  match goal with E : crel_eqb ?x ?y = true |- _ => assert (x = y) by (destruct x, y; simpl in E; congruence) end.
  subst. reflexivity.
Qed.

Lemma avec_eqb_refl a : avec_eqb a a = true.
Proof. destruct a as [? ? ? ? ? ? ? ? ? r]; unfold avec_eqb; simpl. rewrite !eqb_reflx. destruct r; reflexivity. Qed.

Lemma classify_modelled k falsy x : f10 k x = false -> classify (cl_attrs k falsy x) = spec_cls k.
Proof. destruct k as [| |lk| | | | |lk| |], falsy, x; try destruct lk; simpl; intros H; try discriminate H; reflexivity. Qed.

Lemma sync_modelled k falsy x : a_sync (cl_attrs k falsy x) = negb (spec_async k).
Proof. destruct k; reflexivity. Qed.

(* F10 is inherent: the stored vectors coincide, so NO classifier that reads only the stored
   callback can name both registration methods correctly *)
Lemma f10_same_vector falsy : cl_attrs KPushMgr falsy false = cl_attrs KEnter falsy false
                           /\ cl_attrs KPushAMgr falsy false = cl_attrs KEnterA falsy false.
Proof. split; reflexivity. Qed.

Lemma same_vector_inherent (cl : avec -> cls) a b m1 m2 :
  a = b -> m1 <> m2 -> ~ (c_meth (cl a) = m1 /\ c_meth (cl b) = m2).
Proof. intros -> N [H1 H2]. congruence. Qed.

Lemma f10_inherent_async (cl : avec -> cls) falsy :
  ~ (c_meth (cl (cl_attrs KPushAMgr falsy false)) = spec_meth KPushAMgr /\
     c_meth (cl (cl_attrs KEnterA falsy false)) = spec_meth KEnterA).
Proof. apply same_vector_inherent; [reflexivity|discriminate]. Qed.

Lemma mapi_ext_in {A B} (f g : nat -> A -> B) l :
  (forall n x, In x l -> f n x = g n x) -> forall k, mapi f k l = mapi g k l.
Proof.
  induction l as [|x l IH]; intros H k; simpl; [reflexivity|].
  rewrite H by (left; reflexivity). f_equal. apply IH. intros; apply H; right; assumption.
Qed.

Lemma mapi_length {A B} (f : nat -> A -> B) l k : length (mapi f k l) = length l.
Proof. revert k; induction l; intros; simpl; auto. Qed.

Lemma mapi_nth {A B} (f : nat -> A -> B) l : forall k i x,
  nth_error l i = Some x -> nth_error (mapi f k l) i = Some (f (k + i) x).
Proof.
  induction l as [|y l IH]; intros k i x H; destruct i; simpl in *; try discriminate.
  - inversion H; subst. rewrite Nat.add_0_r. reflexivity.
  - rewrite (IH (S k) i x H). f_equal. f_equal. lia.
Qed.

Lemma mapi_app {A B} (f : nat -> A -> B) l e : forall k,
  mapi f k (l ++ e) = mapi f k l ++ mapi f (k + length l) e.
Proof.
  induction l as [|x l IH]; intros k; simpl.
  - rewrite Nat.add_0_r. reflexivity.
  - rewrite IH. do 3 f_equal. lia.
Qed.

Lemma forallb_mapi {A B} (P : B -> bool) (f : nat -> A -> B) l :
  (forall n x, In x l -> P (f n x) = true) -> forall k, forallb P (mapi f k l) = true.
Proof.
  induction l as [|x l IH]; intros H k; simpl; [reflexivity|].
  rewrite H by (left; reflexivity). apply IH. intros; apply H; right; assumption.
Qed.

Lemma existsb_ext_in {A} (f g : A -> bool) l : (forall x, In x l -> f x = g x) -> existsb f l = existsb g l.
Proof.
  induction l as [|x l IH]; intros H; simpl; [reflexivity|].
  rewrite H by (left; reflexivity). f_equal. apply IH. intros; apply H; right; assumption.
Qed.

Lemma list_max_map_in {A} (f : A -> nat) l x : In x l -> f x <= list_max (map f l).
Proof.
  intros H. assert (F : Forall (fun k => k <= list_max (map f l)) (map f l)) by (apply list_max_le; lia).
  rewrite Forall_forall in F. apply F, in_map, H.
Qed.

(* one iteration of the loop of elaborate_exit_stack, and a context of a frame inside its own
   try/except, as the model's [fill] and [series] write them inline *)
Definition child (n : nat) (root : rootk) (path : list nat) (idx : nat) (c : cb) : cout :=
  match c with
  | Cb k falsy exitname a oself ocb m' =>
    let c0 := classify a in
    let tgt := match c_sel c0 with SelSelf => m' | SelCallback => MPlain end in
    let o := match c_sel c0 with SelSelf => oself | SelCallback => ocb end in
    let arg := if has_desc tgt then AChildDesc else c_arg c0 in
    fill n false root (path ++ [idx])
         (KChild (c_sel c0) root path idx (c_await c0) (c_meth c0) arg)
         (Wth o (negb (a_sync a)) true tgt)
  end.

Definition top (n : nat) (ex : bool) (w : wth) : cout :=
  match w with Wth oid async named m =>
    if raises n m then COut oid async ex None [] KTop
    else fill n ex (if named then RName else RUnderscore) [] KTop w end.

Arguments top : simpl never.

Lemma fill_stack n ex r p i oid a nm cbs :
  fill (S n) ex r p i (Wth oid a nm (MStack cbs)) = COut oid a ex None (mapi (child n r p) 0 cbs) i.
Proof. reflexivity. Qed.

Lemma series_S n code ws t :
  series (S n) (Frm code ws t) =
  let cs := map (top n false) ws in
  match t with
  | TStop => [FOut code cs]
  | TDeleg g => FOut code cs :: series n g
  | TExit w => FOut code (cs ++ [top n true w]) :: match w with Wth _ _ _ (MGen g) => series n g | _ => [] end
  | TExitS w cur => FOut code (cs ++ [top n true w]) :: match cur with MGen g => series n g | _ => [] end
  end.
Proof. reflexivity. Qed.

Lemma child_modelled n r p idx k falsy x av oself ocb m' :
  avec_eqb av (cl_attrs k falsy x) = true -> f10 k x = false ->
  child n r p idx (Cb k falsy x av oself ocb m') =
  let tgt := if has_receiver k then m' else MPlain in
  fill n false r (p ++ [idx])
       (KChild (spec_sel k) r p idx (spec_await k) (spec_meth k)
               (if has_desc tgt then AChildDesc else spec_arg k))
       (Wth (spec_oid k oself ocb) (spec_async k) true tgt).
Proof.
  intros Hav Hf. apply avec_eqb_eq in Hav; subst av. unfold child.
  rewrite (classify_modelled k falsy x Hf), sync_modelled, negb_involutive.
  unfold spec_cls, spec_sel, spec_oid; simpl. destruct (has_receiver k); reflexivity.
Qed.

(* hypotheses on ONE registration sequence (the registered managers themselves are arbitrary trees) *)
Definition seq_modelled (cbs : list cb) : bool :=
  forallb (fun c => match c with Cb k falsy x a _ _ _ => avec_eqb a (cl_attrs k falsy x) end) cbs.
Definition seq_nof10 (cbs : list cb) : bool :=
  forallb (fun c => match c with Cb k _ x _ _ _ _ => negb (f10 k x) end) cbs.

Lemma child_nth n r p cbs j k falsy x av oself ocb m' :
  seq_modelled cbs = true -> seq_nof10 cbs = true ->
  nth_error cbs j = Some (Cb k falsy x av oself ocb m') ->
  nth_error (mapi (child n r p) 0 cbs) j =
  Some (let tgt := if has_receiver k then m' else MPlain in
        fill n false r (p ++ [j])
             (KChild (spec_sel k) r p j (spec_await k) (spec_meth k)
                     (if has_desc tgt then AChildDesc else spec_arg k))
             (Wth (spec_oid k oself ocb) (spec_async k) true tgt)).
Proof.
  unfold seq_modelled, seq_nof10. rewrite !forallb_forall. intros Hm Hn Hj.
  pose proof (nth_error_In _ _ Hj) as Hin. specialize (Hm _ Hin). specialize (Hn _ Hin).
  apply negb_true_iff in Hn. rewrite (mapi_nth _ _ _ _ _ Hj). f_equal. apply child_modelled; assumption.
Qed.

Lemma fill_head n ex r p i oid a nm m :
  exists inner kids, fill (S n) ex r p i (Wth oid a nm m) = COut oid a ex inner kids i.
Proof. destruct m; simpl; eauto. Qed.

Lemma depth_cb n cbs c : depth_mgr (MStack cbs) <= S n -> In c cbs ->
  match c with Cb _ _ _ _ _ _ m' => depth_mgr m' end <= n.
Proof.
  simpl. intros Hd Hin.
  pose proof (list_max_map_in (fun c => match c with Cb _ _ _ _ _ _ m' => depth_mgr m' end) _ _ Hin) as H.
  simpl in H. lia.
Qed.

Lemma depth_wth n code ws t : depth_frm (Frm code ws t) <= S n -> forall w, In w ws ->
  match w with Wth _ _ _ m => depth_mgr m end <= n.
Proof.
  simpl. intros Hd w Hin.
  pose proof (list_max_map_in (fun w => match w with Wth _ _ _ m => depth_mgr m end) _ _ Hin) as H.
  simpl in H. lia.
Qed.

Lemma stack_hyps cbs c : modelled_mgr (MStack cbs) = true -> nof10_mgr (MStack cbs) = true -> In c cbs ->
  match c with Cb k falsy x a _ _ m' =>
    (avec_eqb a (cl_attrs k falsy x) = true /\ f10 k x = false) /\ modelled_mgr m' = true /\ nof10_mgr m' = true end.
Proof.
  simpl. rewrite !forallb_forall. intros Hm Hn Hin. specialize (Hm c Hin). specialize (Hn c Hin).
  destruct c. apply andb_true_iff in Hm as [? ?], Hn as [Hf ?]. apply negb_true_iff in Hf. auto.
Qed.

Lemma needs_repr_receiver k : has_receiver k = true -> needs_repr (spec_cls k) = true.
Proof. destruct k; simpl; intros H; try discriminate H; reflexivity. Qed.

Lemma raises_correct : forall fuel m,
  depth_mgr m <= fuel -> modelled_mgr m = true -> nof10_mgr m = true -> raises fuel m = spec_raises m.
Proof.
  induction fuel as [|n IH]; intros m Hd Hm Hn.
  - destruct m; simpl in Hd; lia.
  - destruct m as [|f|cbs|]; try reflexivity.
    simpl. apply existsb_ext_in. intros c Hin.
    pose proof (depth_cb _ _ _ Hd Hin) as Hdc. pose proof (stack_hyps _ _ Hm Hn Hin) as Hc.
    destruct c as [k falsy x av oself ocb m']. destruct Hc as ((Hav & Hf) & Hm' & Hn').
    apply avec_eqb_eq in Hav. subst av. rewrite (classify_modelled k falsy x Hf).
    pose proof (needs_repr_receiver k) as Hr.
    unfold spec_cls in *; simpl in *. unfold spec_sel in *. destruct (has_receiver k); simpl; [|reflexivity].
    rewrite Hr by reflexivity. rewrite andb_true_r. rewrite IH by assumption. reflexivity.
Qed.

Definition spec_top (ex : bool) (w : wth) : cout :=
  match w with Wth oid async named m =>
    if spec_raises m then COut oid async ex None [] KTop
    else spec_mgr ex (if named then RName else RUnderscore) [] KTop oid async m end.

Lemma unfold_correct : forall fuel,
  (forall m, depth_mgr m <= fuel -> modelled_mgr m = true -> nof10_mgr m = true ->
     forall ex r p i oid a nm, fill fuel ex r p i (Wth oid a nm m) = spec_mgr ex r p i oid a m) /\
  (forall f, depth_frm f <= fuel -> modelled_frm f = true -> nof10_frm f = true ->
     series fuel f = spec_series f).
Proof.
  induction fuel as [|n [IHm IHf]].
  - split; intros x H; destruct x; simpl in H; lia.
  - assert (Htop : forall ex oid a nm m, depth_mgr m <= n -> modelled_mgr m = true -> nof10_mgr m = true ->
                     top n ex (Wth oid a nm m) = spec_top ex (Wth oid a nm m)).
    { intros ex oid a nm m H1 H2 H3. unfold top, spec_top. rewrite raises_correct by assumption.
      destruct (spec_raises m); [reflexivity|]. apply IHm; assumption. }
    split.
    + intros m Hd Hm Hn ex r p i oid a nm. destruct m as [|f|cbs|]; try reflexivity.
      * simpl in *. destruct ex; [reflexivity|]. rewrite IHf by (assumption || lia). reflexivity.
      * rewrite fill_stack. simpl. f_equal. apply mapi_ext_in. intros idx c Hin.
        pose proof (depth_cb _ _ _ Hd Hin) as Hdc. pose proof (stack_hyps _ _ Hm Hn Hin) as Hc.
        destruct c as [k falsy x av oself ocb m']. destruct Hc as ((Hav & Hf) & Hm' & Hn').
        rewrite (child_modelled _ _ _ _ _ _ _ _ _ _ _ Hav Hf). unfold spec_sel, spec_oid.
        destruct (has_receiver k); simpl; [apply IHm; assumption|].
        (* a function or callback is unfolded as a plain manager, which takes one unit of fuel:
           there is one, since every manager has depth >= 1 *)
        destruct n; [destruct m'; simpl in Hdc; lia|reflexivity].
    + intros f Hd Hm Hn. destruct f as [code ws t]. rewrite series_S.
      pose proof (depth_wth _ _ _ _ Hd) as Hdw. simpl in Hd, Hm, Hn.
      apply andb_true_iff in Hm as [Hmw Hmt]. apply andb_true_iff in Hn as [Hnw Hnt].
      rewrite forallb_forall in Hmw, Hnw.
      assert (Hws : map (top n false) ws = map (spec_top false) ws).
      { apply map_ext_in. intros w Hin. specialize (Hdw w Hin). specialize (Hmw w Hin). specialize (Hnw w Hin).
        destruct w. apply Htop; assumption. }
      simpl. rewrite Hws. destruct t as [|g|[oid a nm m]|[oid a nm m] cur].
      * reflexivity.
      * rewrite IHf by (assumption || lia). reflexivity.
      * rewrite Htop by (assumption || lia). destruct m as [|g|cbs|]; try reflexivity.
        simpl in Hd, Hmt, Hnt. rewrite IHf by (assumption || lia). reflexivity.
      * apply andb_true_iff in Hmt as [Hmt Hmc]. apply andb_true_iff in Hnt as [Hnt Hnc].
        rewrite Htop by (assumption || lia). destruct cur as [|g|cbs|]; try reflexivity.
        simpl in Hd, Hmc, Hnc. rewrite IHf by (assumption || lia). reflexivity.
Qed.

Lemma fuel_irrelevant f1 f2 f :
  depth_frm f <= f1 -> depth_frm f <= f2 -> modelled_frm f = true -> nof10_frm f = true ->
  series f1 f = series f2 f.
Proof. intros. rewrite !(proj2 (unfold_correct _)) by assumption. reflexivity. Qed.

Fixpoint fuel_free_c (c : cout) : bool :=
  match c with
  | COut _ _ _ inner kids _ =>
      match inner with None => true | Some l => forallb fuel_free_f l end && forallb fuel_free_c kids
  | CFuel => false
  end
with fuel_free_f (f : fout) : bool :=
  match f with FOut _ cs => forallb fuel_free_c cs | FFuel => false end.

Lemma fuel_suffices : forall fuel,
  (forall m, depth_mgr m <= fuel -> forall ex r p i oid a nm,
     fuel_free_c (fill fuel ex r p i (Wth oid a nm m)) = true) /\
  (forall f, depth_frm f <= fuel -> forallb fuel_free_f (series fuel f) = true).
Proof.
  induction fuel as [|n [IHm IHf]].
  - split; intros x H; destruct x; simpl in H; lia.
  - assert (Htop : forall ex oid a nm m, depth_mgr m <= n -> fuel_free_c (top n ex (Wth oid a nm m)) = true).
    { intros ex oid a nm m H1. unfold top. destruct (raises n m); [reflexivity|]. apply IHm; assumption. }
    split.
    + intros m Hd ex r p i oid a nm. destruct m as [|f|cbs|]; try reflexivity.
      * simpl in *. destruct ex; [reflexivity|]. simpl. rewrite IHf by lia. reflexivity.
      * rewrite fill_stack. simpl. apply forallb_mapi. intros idx c Hin.
        pose proof (depth_cb _ _ _ Hd Hin) as Hdc. destruct c as [k falsy x av oself ocb m']. simpl.
        destruct (c_sel (classify av)); apply IHm; [assumption|].
        destruct m'; simpl in Hdc |- *; lia.
    + intros f Hd. destruct f as [code ws t]. rewrite series_S.
      pose proof (depth_wth _ _ _ _ Hd) as Hdw. simpl in Hd.
      assert (Hws : forallb fuel_free_c (map (top n false) ws) = true).
      { apply forallb_forall. intros c Hc. apply in_map_iff in Hc as (w & <- & Hin).
        specialize (Hdw w Hin). destruct w. apply Htop; assumption. }
      destruct t as [|g|[oid a nm m]|[oid a nm m] cur]; simpl; rewrite ?forallb_app, Hws; simpl.
      * reflexivity.
      * apply IHf. lia.
      * rewrite Htop by lia. simpl. destruct m as [|g|cbs|]; try reflexivity. simpl in Hd. apply IHf. lia.
      * rewrite Htop by lia. simpl. destruct cur as [|g|cbs|]; try reflexivity. simpl in Hd. apply IHf. lia.
Qed.

Definition kid_meth (c : cout) : option meth :=
  match c with COut _ _ _ _ _ (KChild _ _ _ _ _ m _) => Some m | _ => None end.
Definition kid_await (c : cout) : option bool :=
  match c with COut _ _ _ _ _ (KChild _ _ _ _ w _ _) => Some w | _ => None end.

(* known finding F10, witness: push(manager) on a sync stack is described as enter_context,
   push_async_exit(manager) as an awaited enter_async_context *)
Definition f10_witness (k : regkind) : list cb := [Cb k false false (cl_attrs k false false) 1 2 MPlain].

(* an AsyncExitStack holding an entered @contextmanager whose generator holds an ExitStack with a
   callback and a pushed bound method, a falsy plain manager, an async function and an async
   callback; the owner is exiting an @asynccontextmanager whose generator delegates *)
Definition ex_inner_stack : mgr :=
  MStack [Cb KCallback false false (cl_attrs KCallback false false) 0 21 MPlain;
          Cb KPushMeth false false (cl_attrs KPushMeth false false) 22 23 (MGen (Frm 12 [] TStop))].
Definition ex_stack : mgr :=
  MStack [Cb KEnter false false (cl_attrs KEnter false false) 30 31
             (MGen (Frm 11 [Wth 32 false false ex_inner_stack] (TDeleg (Frm 13 [] TStop))));
          Cb KEnterA true false (cl_attrs KEnterA true false) 33 34 MPlain;
          Cb (KPushAFn LWraps) false false (cl_attrs (KPushAFn LWraps) false false) 0 35 MPlain;
          Cb KACallback false false (cl_attrs KACallback false false) 0 36 MPlain].
Definition ex_tree : frm :=
  Frm 10 [Wth 40 true true ex_stack]
      (TExit (Wth 41 true false (MGen (Frm 14 [Wth 42 false true MPlain] (TDeleg (Frm 15 [] TStop)))))).

Example ex_tree_hyps :
  depth_frm ex_tree <= 8 /\ modelled_frm ex_tree = true /\ nof10_frm ex_tree = true.
Proof. vm_compute. repeat split. lia. Qed.

Example ex_tree_frames :
  map (fun f => match f with FOut c _ => c | FFuel => 0 end) (series 8 ex_tree) = [10; 14; 15].
Proof. reflexivity. Qed.

Example ex_seq_hyps :
  match ex_stack with MStack cbs => seq_modelled cbs = true /\ seq_nof10 cbs = true | _ => False end.
Proof. split; reflexivity. Qed.

(* a with-block whose unfolding fails (the repr of a registered manager raises) stays bare; its
   neighbours in the frame are unfolded as usual *)
Definition ex_faulty_frame : frm :=
  Frm 10 [Wth 40 false true (MStack [Cb KEnter false false (cl_attrs KEnter false false) 30 31 MFaulty]);
          Wth 41 false true (MGen (Frm 11 [] TStop));
          Wth 42 false true (MStack [Cb KCallback false false (cl_attrs KCallback false false) 0 32 MPlain])] TStop.
Example ex_faulty_contained :
  series 5 ex_faulty_frame =
  [FOut 10 [COut 40 false false None [] KTop;
            COut 41 false false (Some [FOut 11 []]) [] KTop;
            COut 42 false false None
              [COut 32 false false None [] (KChild SelCallback RName [] 0 false MCallback ACallArgs)] KTop]].
Proof. reflexivity. Qed.

Example ex_mid_exit_hyps :
  match ex_stack with MStack cbs => raises 5 (MStack cbs) = false | _ => False end.
Proof. reflexivity. Qed.
