(* C20 — the fallback (referents) analysis is a sound ordered over-approximation; failures of
   the trickery analysis only warn. *)
Require Import Base M_Bytecode M_Analysis M_WithMachine M_Cert P_Cert P_Ref X_WMExample.
From SS.gen Require Import SrcFacts.

(* For a code object whose certificate passes [checkk KRef]: at EVERY suspension point of
   EVERY execution the referents-mode answer contains every truly active manager, in order, with
   the identical instance and the right is_async; each entry is a manager of this frame's truth,
   at most once — so an additional entry can only be one the frame is currently entering or
   exiting; and there is an is_exiting entry (last, once, right is_async) exactly when an exit
   call is in progress. *)
Theorem C20_fallback_sound : forall v c t ct, checkk v KRef c t ct = true ->
  forall s, reach v c t s ->
  forall lasti st tr, In (false, lasti, st, tr) (obs c s) ->
  ref_sound tr (referents v c t lasti st).
Proof.
  intros v c t ct Hc s Hr l st tr Hin.
  destruct (obs_reach _ _ _ _ _ Hc _ Hr _ Hin) as (g & [[[r' l'] est] etr] & [= <- <- -> ->] & Hk).
  exact (ref_ok_sound v c t l g est etr Hk).
Qed.
Print Assumptions C20_fallback_sound.

(* the call of the trickery analysis sits in a try/except Exception that warns and falls back:
   regenerated from /repo's source on every run *)
Theorem C20_guard_present : SrcFacts.trickery_failure_guarded = true.
Proof. reflexivity. Qed.
Print Assumptions C20_guard_present.

(* with that guard, contexts_active_in_frame never raises, whatever fails inside the trickery
   branch, and a failure yields exactly the referents-mode answer plus a warning *)
Theorem C20_failure_warns : forall v enabled c t running lasti (st : list (val nat)),
  contexts_active v SrcFacts.trickery_failure_guarded enabled c t running lasti st <> CafRaise
  /\ (trickery v c t running lasti st = TFail ->
      contexts_active v SrcFacts.trickery_failure_guarded true c t running lasti st
      = CafRef (referents v c t lasti st) true)
  /\ contexts_active v SrcFacts.trickery_failure_guarded false c t running lasti st
     = CafRef (referents v c t lasti st) false.
Proof.
  intros. change SrcFacts.trickery_failure_guarded with true.
  split; [apply caf_never_raises|]. split; [apply caf_failure_falls_back|reflexivity].
Qed.
Print Assumptions C20_failure_warns.

(* every write of the switch happens under its lock, and auto-detection re-checks the switch under
   the lock before storing its result (regenerated from /repo's source): this is what makes the
   register below sequentially consistent *)
Theorem C20_switch_under_lock : SrcFacts.trickery_switch_locked = true.
Proof. reflexivity. Qed.
Print Assumptions C20_switch_under_lock.

(* set_trickery_enabled(v): all later reads (on any thread: the register is only accessed
   under its lock, so operations are totally ordered) see v; None restores auto-detection *)
Theorem C20_mode_switch : forall detect s v ops,
  Forall (fun o => o = TCheck) ops ->
  tr_run detect s (TSet (Some v) :: ops) = None :: map (fun _ => Some v) ops
  /\ tr_run detect s (TSet None :: ops) = None :: map (fun _ => Some detect) ops.
Proof.
  intros detect s v ops H. split; cbn [tr_run tr_step]; f_equal; [apply tr_checks_cached, H|apply tr_checks_fresh, H].
Qed.
Print Assumptions C20_mode_switch.

(* ... and None really re-runs the detection: the next check tests again (warning iff the self-test fails on
   this interpreter), whatever was set or detected before; an explicit value never tests and never warns *)
Theorem C20_reset_redetects : forall detect s v ops,
  Forall (fun o => o = TCheck) ops ->
  tr_warns detect s (TSet None :: TCheck :: ops) = false :: negb detect :: map (fun _ => false) ops
  /\ tr_warns detect s (TSet (Some v) :: ops) = false :: map (fun _ => false) ops.
Proof.
  intros detect s v ops H. split; cbn [tr_warns tr_warn tr_step fst]; repeat f_equal; apply tr_checks_cached, H.
Qed.
Print Assumptions C20_reset_redetects.

Example C20_example_check : checkk V312 KRef ex_code ex_table ex_cert = true.
Proof. vm_compute. reflexivity. Qed.
Example C20_example_in_aexit :
  exists s, reach V312 ex_code ex_table s /\
            exists lasti st tr, In (false, lasti, st, tr) (obs ex_code s)
              /\ map (@r_exiting nat) (referents V312 ex_code ex_table lasti st) = [false; false; true].
Proof.
  eexists. split; [apply (exec_reach _ _ _ ex_path_aexit _ _ (reach_init _ _ _)); vm_compute; reflexivity|].
  eexists _, _, _. split; [left; reflexivity|vm_compute; reflexivity].
Qed.
