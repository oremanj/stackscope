(* C17 — library glue is installed exactly once, in time, module-provided beats built-in.
   About the model M_Glue.v that the correspondence evaluates: [run] = all interleavings of
   micro-steps of any number of threads with environment steps; the coarse runs used by the
   correspondence are such runs (crun_is_run). *)
Require Import Base M_Glue P_Glue.
From SS.gen Require Import SrcFacts.

(* every coarse (checkpoint-level / sequential) run evaluated by the correspondence is a micro-step run *)
Theorem C17_model_runs_are_runs :
  forall c w ls s, exists ms, fst (crun c w ls s) = run c w ms s.
Proof. exact crun_is_run. Qed.
Print Assumptions C17_model_runs_are_runs.

(* per module object: its _stackscope_install_glue_ is called at most once, on every schedule *)
Theorem C17_at_most_once :
  forall w scanned ls o, nM o (log (run src_cfg w ls (init w scanned))) <= 1.
Proof.
  intros w scanned ls o.
  apply (IM_reachable (c := src_cfg) (w := w) eq_refl o (scanned := scanned)). exists ls; reflexivity.
Qed.
Print Assumptions C17_at_most_once.

(* whenever the installation routine ran a built-in glue function for a module object, that object
   offered no (not yet consumed) glue of its own: module-provided glue is never passed over *)
Theorem C17_prefers_module :
  forall w scanned ls f n o,
    let s := run src_cfg w ls (init w scanned) in
    In (EvCallB f n (Some o)) (log s) -> glue_of w o = None \/ In o (popped s).
Proof.
  intros w scanned ls f n o s H.
  apply (@PM_reachable src_cfg w eq_refl o scanned s); [exists ls; reflexivity|].
  left. exists (EvCallB f n (Some o)). split; [exact H|apply Nat.eqb_refl].
Qed.
Print Assumptions C17_prefers_module.

(* a glue function that raises Exception costs one RuntimeWarning: the thread keeps the lock and
   goes on with the rest of its snapshot (any state, hence any schedule before it) ... *)
Theorem C17_failure_is_warning :
  forall w s t nm mf bf cur todo n fs mk,
    thr s t = PCall nm mf bf cur todo n ->
    selected w mf bf = Some (fs, mk) -> fbeh fs = BRaise ->
    let s' := step src_cfg w (LThr t) s in
    (exists ev, log s' = EvWarn mk nm :: ev :: log s /\ is_call ev = true)
    /\ thr s' t = PScan todo n /\ lock s' = lock s /\ cache s' = cache s /\ pend s' = pend s.
Proof. exact (fun w s t nm mf bf cur todo n fs mk => @raise_is_warning src_cfg w s t nm mf bf cur todo n fs mk eq_refl). Qed.
Print Assumptions C17_failure_is_warning.

(* ... and, left to run, visits every remaining name, writes the cache and returns normally,
   whatever the remaining glue functions do short of raising BaseException *)
Theorem C17_failure_scan_completes :
  forall w t, no_base w ->
  forall todo s n, thr s t = PScan todo n ->
  exists k, let s' := run src_cfg w (repeat (LThr t) k) s in
    thr s' t = PDone true /\ cache s' = n /\ In (EvRet t true) (log s').
Proof. exact (fun w t => @scan_completes src_cfg w t eq_refl). Qed.
Print Assumptions C17_failure_scan_completes.

Example C17_failure_hypotheses_met :
  no_base g1_world /\
  selected (mkworld 1 [OMod (Some (mkfn BRaise []))] []) (Some 0) (Some 3) = Some (mkfn BRaise [], true).
Proof. split; [split; [intros [|[|o]] fs H; inversion H; discriminate | intros [|[|f]]; discriminate]|reflexivity]. Qed.

(* known finding F4: without "nothing removed since the last scan" timeliness fails.  Module A is
   removed from sys.modules and module B imported; len(sys.modules) equals the cached length, so
   the next extraction takes the fast path and returns normally with B's glue still pending (no
   removal happens during that extraction itself) *)
Theorem C17_F4_refuted :
  exists w scanned h t n o,
    hist_ok h = true /\
    let r := crun src_cfg w h (init w scanned) in
    ~ In Stuck (snd r) /\ pendingM w (fst r) n o /\
    let s2 := extraction src_cfg w t (fst r) in
    thr s2 t = PDone true /\ g_nrem s2 = g_nrem (fst r) /\ ~ calledM s2 o.
Proof.
  exists (mkworld 1 [OMod (Some (mkfn BOk [])); OMod (Some (mkfn BOk []))] []), true,
         [CEnv (EIR (IIns 0 0)); CFull 0; CEnv (EIR (IRem 0)); CEnv (EIR (IIns 1 1))], 0, 1, 1.
  split; [reflexivity|]. vm_compute. repeat split; try discriminate; try tauto.
  - intros [H|[]]. discriminate.
  - intros [H|[]]. discriminate.
  - intros (n & d & H). destruct H as [H|[H|[H|[]]]]; discriminate.
Qed.
Print Assumptions C17_F4_refuted.

(* never both kinds for one module object, on every schedule of every history in which all
   builtin_glue registrations precede the first extraction (g_late = false: built-in glue is
   registered when stackscope is imported).  [EvImm f n o]: built-in f run at registration time
   for module n whose object was o; [EvCallB f n (Some o)]: built-in f run by the installation
   routine on a visit of name n that found object o. *)
Theorem C17_never_both :
  forall w scanned ls n o,
    let s := run src_cfg w ls (init w scanned) in
    g_late s = false ->
    forall d, In (EvCallM o n d) (log s) ->
    (forall f, ~ In (EvCallB f n (Some o)) (log s)) /\ (forall f, ~ In (EvImm f n o) (log s)).
Proof. exact (fun w scanned ls n o => @never_both w scanned ls n o eq_refl). Qed.
Print Assumptions C17_never_both.

Example C17_never_both_hypothesis_met :
  let s := run src_cfg nb_world nb_hist (init nb_world true) in
  g_late s = false /\ In (EvCallM 0 0 (Some 0)) (log s) /\ In (EvImm 1 1 1) (log s).
Proof. exact never_both_hyp_met. Qed.

(* TIMELINESS, all schedules.  Thread t is not inside add_glue_as_needed at s1; module object o
   is in sys.modules under n with its glue not yet consumed; no removal/replacement has happened
   since the snapshot the cache value stems from nor since the snapshot of a scan in progress
   (no_removal_since_last_scan = the two ghost flags), and none happens in the window ls2.  Then
   whenever t returns normally from add_glue_as_needed within the window, o's glue has been called
   (by t or by another thread) -- for every interleaving ls2 of any number of threads and
   environment steps; since the statement holds for the window that ends with the returning step,
   the call precedes the return.  C17_F4_refuted shows the flags cannot be dropped. *)
Theorem C17_timely :
  forall w scanned ls1 ls2 t n o,
    1 <= w_base w ->
    let s1 := run src_cfg w ls1 (init w scanned) in
    (thr s1 t = PIdle \/ exists b, thr s1 t = PDone b) ->
    pendingM w s1 n o -> g_since_cache s1 = false -> g_since_snap s1 = false ->
    let s2 := run src_cfg w ls2 s1 in
    g_nrem s2 = g_nrem s1 ->
    forall new, log s2 = new ++ log s1 -> In (EvRet t true) new -> calledM s2 o.
Proof. exact (fun w scanned ls1 ls2 t n o _ => @timely src_cfg w scanned ls1 ls2 t n o eq_refl eq_refl). Qed.
Print Assumptions C17_timely.

(* 3 threads, 4 modules: thread 0 finished a scan, thread 1 is inside one, thread 2 idle, m3 pending *)
Example C17_timely_hypotheses_met :
  let s1 := run src_cfg tm_world tm_hist (init tm_world true) in
  thr s1 0 = PDone true /\ is_pcall (thr s1 1) = true /\ thr s1 2 = PIdle
  /\ pendingM tm_world s1 3 3 /\ g_since_cache s1 = false /\ g_since_snap s1 = false.
Proof. exact timely_hyp_met. Qed.

(* the invariant behind C17_timely, for every reachable state: mutual exclusion of the locked
   region; the cache value is 0 or the length of a snapshot all of whose modules are served (as
   long as nothing was removed since); the scan in progress has served every name it has passed *)
Theorem C17_cache_invariant :
  forall w scanned s, 1 <= w_base w -> reachable src_cfg w scanned s -> GI w s.
Proof. exact (fun w scanned s _ => @GI_reachable src_cfg w eq_refl eq_refl scanned s). Qed.
Print Assumptions C17_cache_invariant.

(* TIMELINESS for a module whose pending glue is a BUILT-IN function f (the module object under n
   offers no unconsumed glue of its own and builtin_glue_pending[n] = f): same hypotheses and
   conclusion as C17_timely, all schedules. *)
Theorem C17_timely_builtin :
  forall w scanned ls1 ls2 t n f,
    1 <= w_base w ->
    let s1 := run src_cfg w ls1 (init w scanned) in
    (thr s1 t = PIdle \/ exists b, thr s1 t = PDone b) ->
    pendingB w s1 n f -> g_since_cache s1 = false -> g_since_snap s1 = false ->
    let s2 := run src_cfg w ls2 s1 in
    g_nrem s2 = g_nrem s1 ->
    forall new, log s2 = new ++ log s1 -> In (EvRet t true) new -> calledB s2 f.
Proof. exact (fun w scanned ls1 ls2 t n f _ => @timely_builtin src_cfg w scanned ls1 ls2 t n f eq_refl eq_refl). Qed.
Print Assumptions C17_timely_builtin.

Example C17_timely_builtin_hypotheses_met :
  let s1 := run src_cfg tb_world tb_hist (init tb_world true) in
  thr s1 0 = PDone true /\ thr s1 1 = PLocked /\ thr s1 2 = PIdle
  /\ pendingB tb_world s1 0 0 /\ g_since_cache s1 = false /\ g_since_snap s1 = false /\ g_late s1 = false.
Proof. exact timely_builtin_hyp_met. Qed.

(* per built-in function object (the k-th builtin_glue registration creates function k): called at
   most once, counting calls by the installation routine and the call at registration time *)
Theorem C17_at_most_once_builtin :
  forall w scanned ls f, nB f (log (run src_cfg w ls (init w scanned))) <= 1.
Proof.
  intros w scanned ls f. apply (@IB_reachable src_cfg w eq_refl scanned). exists ls; reflexivity.
Qed.
Print Assumptions C17_at_most_once_builtin.

(* a glue function that raises BaseException: the exception escapes from extract (outside the
   property) but, in every state satisfying the invariant (i.e. every reachable state, under any
   interleaving), the step releases glue_lock, leaves the cache and the pending table untouched
   (so the next extraction rescans), changes no other thread, and re-establishes the invariant.
   C17_cache_invariant, C17_timely, C17_timely_builtin, C17_never_both, C17_at_most_once* carry no
   "no BaseException" hypothesis: they hold for the other threads whatever escapes. *)
Theorem C17_base_exception_is_contained :
  forall w s t nm mf bf cur todo k fs mk,
    GI w s -> thr s t = PCall nm mf bf cur todo k ->
    selected w mf bf = Some (fs, mk) -> fbeh fs = BBase ->
    let s' := step src_cfg w (LThr t) s in
    thr s' t = PDone false /\ lock s' = None /\ cache s' = cache s /\ pend s' = pend s
    /\ (exists ev, log s' = EvRet t false :: ev :: log s /\ is_call ev = true)
    /\ (forall t', t' <> t -> thr s' t' = thr s t')
    /\ GI w s'.
Proof. exact (fun w s t nm mf bf cur todo k fs mk => @base_escapes src_cfg w s t nm mf bf cur todo k fs mk eq_refl eq_refl). Qed.
Print Assumptions C17_base_exception_is_contained.

(* candidate finding C17-G2 (signature C17G2_builtin_registered_after_module_glue_ran: the
   built-in runs at registration for a module whose own glue has already run) is outside the
   property's space -- registration happens when stackscope is imported, before any extraction.
   In that space (g_late = false, the hypothesis of C17_never_both) it cannot occur: *)
Corollary C17_G2_cannot_occur :
  forall w scanned ls n o,
    let s := run src_cfg w ls (init w scanned) in
    g_late s = false ->
    ~ (exists f d, In (EvImm f n o) (log s) /\ In (EvCallM o n d) (log s)).
Proof.
  intros w scanned ls n o s GL (f & d & H1 & H2).
  exact (proj2 (@never_both w scanned ls n o eq_refl GL d H2) f H1).
Qed.
Print Assumptions C17_G2_cannot_occur.

(* ODD sys.modules ENTRIES (None, an object without __dict__, a module whose attribute access raises
   -- failed LazyLoader import --): entry kind ONoDict of the model.  All theorems above quantify over
   worlds that contain such entries at any position of the scan order.  Explicitly: the visit of an
   odd entry consumes nothing and selects no module glue, only what is pending as built-in for that
   name; with a pending built-in it meets the hypothesis of C17_timely_builtin (so that built-in has
   run when the extraction returns) and C17_at_most_once_builtin bounds it by one; the neighbours
   are covered by C17_timely / C17_at_most_once.  A module whose _stackscope_install_glue_ is not
   callable is an [OMod] whose glue raises (TypeError): C17_failure_is_warning. *)
Theorem C17_odd_entry_is_skipped :
  forall w t nm todo k s o,
    obj_of w o = ONoDict -> m_get (mods s) nm = Some o ->
    let s' := visit src_cfg w t nm todo k s in
    popped s' = popped s /\ mods s' = mods s
    /\ thr s' t = match m_get (pend s) nm with
                  | Some f => PCall nm None (Some f) (Some o) todo k
                  | None => PScan todo k
                  end.
Proof.
  intros w t nm todo k s o OD MG. rewrite visit_eq by reflexivity. simpl. rewrite upd_same.
  unfold visit_pc, visit_mf. rewrite MG, (odd_entry_no_glue w o OD).
  repeat split. destruct (m_get (pend s) nm); reflexivity.
Qed.
Print Assumptions C17_odd_entry_is_skipped.

(* ... and a built-in pending for the name of an odd entry is pending in the sense of
   C17_timely_builtin *)
Theorem C17_odd_entry_builtin_is_pending :
  forall w s n o f,
    obj_of w o = ONoDict -> m_get (mods s) n = Some o -> m_get (pend s) n = Some f -> pendingB w s n f.
Proof.
  intros w s n o f OD MG PD. split; [exists o; split; [exact MG|left; apply odd_entry_no_glue; exact OD]|exact PD].
Qed.
Print Assumptions C17_odd_entry_builtin_is_pending.

Example C17_odd_entries_example :
  let r := crun src_cfg odd_world odd_hist (init odd_world true) in
  map erase (rev (log (fst r))) =
    [OCallM 0 0; OCallB 0 1; OCallM 3 3; OWarn true 3; OCallB 1 4; OWarn false 4; OCallM 5 5; ORet 0 true]
  /\ pend (fst r) = [] /\ cache (fst r) = 7.
Proof. exact odd_entries_are_skipped. Qed.

(* "Every extraction starts with a scan": in the model an extraction IS a thread entering the
   installation routine (PIdle -> PEnter), which is the situation C17_timely / C17_timely_builtin speak
   about.  That the code matches this for EVERY public entry point is a structural source fact,
   re-extracted on every run (harness/facts_c17.py, fail-closed): extract_iter -- the generator driven
   by extract, extract_child, extract_outermost, and through extract by extract_since / extract_until --
   calls add_glue_as_needed() unconditionally before its first yield.  (fill_context() outside an
   extraction is not an extraction and performs no scan: modelled as no step, checked by the
   correspondence.)  The correspondence exercises all entry points, the re-entrant extract_child included. *)
Theorem C17_every_entry_point_scans : SrcFacts.c17_scan_at_every_entry = true.
Proof. reflexivity. Qed.
Print Assumptions C17_every_entry_point_scans.

(* Remaining gap (stated, not proved): liveness-style "the scanning thread completes" is proved for
   the thread running on its own (C17_failure_scan_completes); under interleaving no other thread
   can enter the locked region (C17_cache_invariant, gi_L1), and the safety consequences --
   timeliness, cache soundness -- are the theorems above. *)
