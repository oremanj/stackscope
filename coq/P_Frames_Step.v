(* P_Frames_Step.v — the two loops of M_Frames read one turn at a time.
   [flatten] treats the head of its queue ([unwrap_head]) and goes on; [run] flattens, treats the
   first frame (contexts, then elaborate_frame), re-queues what is left ([requeued]) and goes on.
   The equations below say so; proofs about [flatten] and [run] rewrite with them and never
   unfold the two bodies.  A turn is quiet when its hook calls are not made to fault and the
   contexts step is switched off: the second half states the turn equations for that case. *)
Require Import Base M_Frames.

(* what one turn of the unwrap loop does with the entry (org, cur, d) at the head of the queue:
   it is settled as a leaf of the elaboration queue (a raw python frame wrapped into a Frame),
   or it is replaced by the items it unwraps to, one level deeper, or the exception of an
   unguarded call site escapes *)
Inductive uturn :=
  | ULeaf (errs : list err) (t : nat)
  | UPush (l : list item) (errs : list err) (t : nat)
  | UFail (e : err).

Definition settled (c : cfg) (org : option nat) (q : qitem) : qitem :=
  match q with QPy f => QFr f (frame_origin c org f) | _ => q end.
Definition pushed (c : cfg) (org : option nat) (d : nat) (l : list item) : list qent :=
  map (fun i => (better_origin c (q_of i) org, q_of i, d)) l.

Definition unwrap_head (cnt : nat) (c : cfg) (cur : qitem) (errs : list err) (t : nat) : uturn :=
  match cur with
  | QPy _ | QFr _ _ => ULeaf errs t
  | _ =>
    let fail e := if g_unwrap (grd c) then ULeaf (e :: errs) (S t) else UFail e in
    if fault c t then fail (EFault t) else
    let o := match cur with QObj o => o | _ => 0 end in
    match (match cur with QObj o => unwrap c o | _ => UNone end) with
    | URaise => fail (EUnwrap o)
    | r =>
      if uguard c <? S cnt then fail (ELoop cur) else
      match r with
      | UNone | URaise => ULeaf errs (S t)
      | UOne i => UPush [i] errs (S t)
      | USeq l => UPush (somes l) errs (S t)
      | UIter l b =>
          let '(k, e, t2) := iter_steps c o l b (S t) in
          match e with
          | None => UPush k errs t2
          | Some e => if g_iter (grd c) then UPush k (e :: errs) t2 else UFail e
          end
      end
    end
  end.

Lemma flatten_nil fuel cnt c te errs t : flatten (S fuel) cnt c [] te errs t = FlOk (rev te) errs t.
Proof. reflexivity. Qed.

Lemma flatten_cons fuel cnt c org cur d tu te errs t :
  flatten (S fuel) cnt c ((org, cur, d) :: tu) te errs t =
  match unwrap_head cnt c cur errs t with
  | ULeaf errs' t' => flatten fuel 0 c tu ((settled c org cur, d) :: te) errs' t'
  | UPush l errs' t' => flatten fuel (S cnt) c (pushed c org (S d) l ++ tu) te errs' t'
  | UFail e => FlRaised e
  end.
Proof.
  unfold unwrap_head, pushed. cbn [flatten].
  destruct cur as [f|f o|o|]; try reflexivity; destruct (fault c t), (g_unwrap (grd c)); try reflexivity.
  1,2: destruct (unwrap c o) as [|i|l|l b|]; try reflexivity; destruct (uguard c <? S cnt); try reflexivity;
    destruct (iter_steps c o l b (S t)) as [[k [e|]] t2]; try reflexivity; destruct (g_iter (grd c)); reflexivity.
  all: destruct (uguard c <? S cnt); reflexivity.
Qed.

(* the nested extraction run by extract_child on a context's child *)
Definition child_of (self : bool -> cfg -> list qent -> list tent -> list err -> list fout -> nat -> outcome * nat)
           (c : cfg) (k : item) (t : nat) : outcome * nat :=
  self false c [(better_origin c (q_of k) None, q_of k, 0)] [] [] [] t.

Definition leaf_stack (out : list fout) (te : list tent) (errs : list err) : stack :=
  Stack (rev out)
        (match te with
         | [] => LNone
         | [(q, _)] => LOne q
         | _ => LMany (map fst te)
         end) (rev errs).

Definition requeued (c : cfg) (r : eres) (d : nat) (rest : list tent) : list qent * list tent :=
  let next := next_of rest in
  let ins l :=
    let mk q := (better_origin c q None, q, d) in
    (if ends_with_next next l
     then map mk (map (conc next) (removelast l)) ++ redepth d (requeue rest)
     else map mk (map (conc next) l) ++ dropge d (requeue rest), []) in
  match r with
  | ENone | EOne RNone => ([], rest)
  | EOne RNext =>
      match next with
      | None | Some QNone => ([], rest)
      | _ => (redepth d (requeue rest), [])
      end
  | ESeq l => ins l
  | EOne x => ins [x]
  | ERaise => ins []
  end.

(* one turn of [run] after [flatten], with [self] for the recursive call: the case analysis on
   the hook's result is folded into [requeued], and the recursive call is always with
   first = false (a run with first = true stops at its first frame) *)
Definition run_step (self : bool -> cfg -> list qent -> list tent -> list err -> list fout -> nat -> outcome * nat)
           (first : bool) (c : cfg) (fl : fl_res) (out : list fout) (t : nat) : outcome * nat :=
  match fl with
  | FlFuel => (OutOfFuel, t)
  | FlRaised e => (Raised e, t)
  | FlOk ((QFr f org, d) :: rest) errs1 t1 =>
      match ctx_step c (child_of self c) f errs1 t1 with
      | (_, _, t2, Some bad) => (bad, t2)
      | (cx, errs2, t2, None) =>
          match elab_step c f errs2 t2 with
          | (_, _, _, t3, Some e) => (Raised e, t3)
          | (r, errs3, hide, t3, None) =>
              let out' := FOut f hide org cx :: out in
              if first then (Ok (Stack (rev out') LNone (rev errs3)), t3)
              else self false c (fst (requeued c r d rest)) (snd (requeued c r d rest)) errs3 out' t3
          end
      end
  | FlOk te1 errs1 t1 => (Ok (leaf_stack out te1 errs1), t1)
  end.

Lemma run_S fuel first c tu te errs out t :
  run (S fuel) first c tu te errs out t
  = run_step (run fuel) first c (flatten (S fuel) 0 c tu (rev te) errs t) out t.
Proof.
  cbn [run]. destruct (flatten (S fuel) 0 c tu (rev te) errs t) as [te1 errs1 t1|e|]; try reflexivity.
  destruct te1 as [|[[f|f org|o|] d] rest]; try reflexivity; try (destruct rest; reflexivity).
  unfold run_step.
  change (fun k t => run fuel false c [(better_origin c (q_of k) None, q_of k, 0)] [] [] [] t)
    with (child_of (run fuel) c).
  destruct (ctx_step c (child_of (run fuel) c) f errs1 t1) as [[[cx errs2] t2] [bad|]]; try reflexivity.
  destruct (elab_step c f errs2 t2) as [[[[r errs3] hide] t3] [e|]]; try reflexivity.
  destruct first; try reflexivity.
  destruct r as [|l|[i| |]|]; try reflexivity. cbn [requeued]. destruct (next_of rest) as [[| | |]|]; reflexivity.
Qed.

Arguments flatten : simpl never.
Arguments run : simpl never.

Lemma run_kids_bad runner : forall kids acc t ks bad t',
  run_kids runner kids acc t = (ks, Some bad, t') ->
  exists k t0, runner k t0 = (bad, t') /\ forall s, bad <> Ok s.
Proof.
  induction kids as [|k r IH]; intros acc t ks bad t' H; simpl in H; [discriminate|].
  destruct (runner k t) as [[s|e|] t1] eqn:E; [eapply IH; eassumption| |];
    inversion H; subst; exists k, t; split; [assumption|discriminate|assumption|discriminate].
Qed.

Lemma fill_all_bad_not_ok c runner : forall l acc errs t cx errs' t' bad s,
  fill_all c runner l acc errs t = (cx, errs', t', Some bad) -> bad <> Ok s.
Proof.
  induction l as [|cid r IH]; intros acc errs t cx errs' t' bad s H; simpl in H; [discriminate|].
  assert (F : forall e ks t0,
    (if g_fill (grd c) then fill_all c runner r (COut cid ks :: acc) (e :: errs) t0
     else (rev acc, errs, t0, Some (Raised e))) = (cx, errs', t', Some bad) -> bad <> Ok s).
  { intros e ks t0 E. destruct (g_fill (grd c)); [eapply IH; eassumption|inversion E; discriminate]. }
  destruct (fault c t); [eapply F; eassumption|].
  destruct (fill c cid) as [kids|]; [|eapply F; eassumption].
  destruct (run_kids runner kids [] (S t)) as [[ks [b|]] t1] eqn:Ek; [|eapply IH; eassumption].
  apply run_kids_bad in Ek. destruct Ek as (k0 & t0 & _ & Nok).
  destruct b; [|eapply F; eassumption|]; inversion H; subst; [apply Nok|discriminate].
Qed.

Lemma ctx_step_bad_not_ok c runner f errs t cx errs' t' bad s :
  ctx_step c runner f errs t = (cx, errs', t', Some bad) -> bad <> Ok s.
Proof.
  unfold ctx_step. intros H.
  destruct (negb (with_ctx c)); [discriminate|].
  assert (F : forall e, (if g_ctx (grd c) then ([], e :: errs, S t, None)
                         else ([], errs, S t, Some (Raised e))) = (cx, errs', t', Some bad) -> bad <> Ok s).
  { intros e E. destruct (g_ctx (grd c)); inversion E; discriminate. }
  destruct (fault c t); [eapply F; eassumption|].
  destruct (ctxs c f); [eapply fill_all_bad_not_ok; eassumption|eapply F; eassumption].
Qed.

Definition frameless (te : list tent) : Prop :=
  match te with (QFr _ _, _) :: _ => False | _ => True end.

Lemma run_step_leaf self first c te1 errs1 t1 out t : frameless te1 ->
  run_step self first c (FlOk te1 errs1 t1) out t = (Ok (leaf_stack out te1 errs1), t1).
Proof. destruct te1 as [|[[f|f org|o|] d] rest]; try reflexivity. intros []. Qed.

Lemma run_step_Ok self first c fl out t s t' :
  run_step self first c fl out t = (Ok s, t') ->
  exists te1 errs1 t1, fl = FlOk te1 errs1 t1 /\
  ((frameless te1 /\ s = leaf_stack out te1 errs1 /\ t' = t1) \/
   exists f org d rest cx errs2 t2 r errs3 hide t3,
     te1 = (QFr f org, d) :: rest /\
     ctx_step c (child_of self c) f errs1 t1 = (cx, errs2, t2, None) /\
     elab_step c f errs2 t2 = (r, errs3, hide, t3, None) /\
     if first then s = Stack (rev (FOut f hide org cx :: out)) LNone (rev errs3) /\ t' = t3
     else self false c (fst (requeued c r d rest)) (snd (requeued c r d rest)) errs3
               (FOut f hide org cx :: out) t3 = (Ok s, t')).
Proof.
  unfold run_step. intros H.
  destruct fl as [te1 errs1 t1|e|]; try discriminate.
  exists te1, errs1, t1. split; [reflexivity|].
  destruct te1 as [|[[f|f org|o|] d] rest]; try (left; inversion H; repeat split; fail).
  right.
  destruct (ctx_step c (child_of self c) f errs1 t1) as [[[cx errs2] t2] [bad|]] eqn:Ecx.
  { inversion H; subst. exfalso. eapply ctx_step_bad_not_ok; [exact Ecx|reflexivity]. }
  destruct (elab_step c f errs2 t2) as [[[[r errs3] hide] t3] [e|]] eqn:Eel; [discriminate|].
  exists f, org, d, rest, cx, errs2, t2, r, errs3, hide, t3.
  split; [reflexivity|]. split; [exact Ecx|]. split; [exact Eel|].
  destruct first; [inversion H; split; reflexivity|exact H].
Qed.

Lemma extract_unfold c root :
  extract c root = fst (run default_fuel false c (root_q c root) [] [] [] 0).
Proof. reflexivity. Qed.

Lemma extract_is_run c root s :
  extract c root = Ok s -> exists t', run default_fuel false c (root_q c root) [] [] [] 0 = (Ok s, t').
Proof.
  rewrite extract_unfold. destruct (run _ _ _ _ _ _ _ _) as [r t']. intros E. exists t'. f_equal. exact E.
Qed.

Lemma run_nil fuel c errs out t :
  run (S fuel) false c [] [] errs out t = (Ok (Stack (rev out) LNone (rev errs)), t).
Proof. reflexivity. Qed.

Lemma run_flattened fuel c tu te errs out t te1 errs1 t1 :
  flatten (S fuel) 0 c tu (rev te) errs t = FlOk te1 errs1 t1 ->
  run (S fuel) false c tu te errs out t = run (S fuel) false c [] te1 errs1 out t1.
Proof. intros H. rewrite !run_S, H, flatten_nil, rev_involutive. reflexivity. Qed.

Lemma iter_steps_ff c (FF : forall t, fault c t = false) o b : forall l t,
  iter_steps c o l b t = (l, (if b then Some (EIter o) else None), S (length l + t)).
Proof.
  induction l as [|x r IH]; intros t; simpl; rewrite FF; [|rewrite IH, <- plus_n_Sm]; reflexivity.
Qed.

Lemma unwrap_head_obj cnt c o errs t :
  fault c t = false -> uguard c <? S cnt = false ->
  unwrap_head cnt c (QObj o) errs t =
  match unwrap c o with
  | UNone => ULeaf errs (S t)
  | UOne i => UPush [i] errs (S t)
  | USeq l => UPush (somes l) errs (S t)
  | UIter l b =>
      let '(k, e, t2) := iter_steps c o l b (S t) in
      match e with
      | None => UPush k errs t2
      | Some e => if g_iter (grd c) then UPush k (e :: errs) t2 else UFail e
      end
  | URaise => if g_unwrap (grd c) then ULeaf (EUnwrap o :: errs) (S t) else UFail (EUnwrap o)
  end.
Proof. intros F G. unfold unwrap_head. rewrite F, G. destruct (unwrap c o); reflexivity. Qed.

(* = (settled c org (QPy f), d): wrapping a raw python frame costs no hook call *)
Definition raw (c : cfg) (org : option nat) (d f : nat) : tent := (QFr f (frame_origin c org f), d).

Lemma flatten_raw c org d : forall l fuel cnt te errs t, length l < fuel ->
  flatten fuel cnt c (map (fun f => (org, QPy f, d)) l) te errs t = FlOk (rev te ++ map (raw c org d) l) errs t.
Proof.
  induction l as [|f l IH]; intros [|fuel] cnt te errs t L; cbn [length] in L; try lia; cbn [map].
  - rewrite flatten_nil, app_nil_r. reflexivity.
  - rewrite flatten_cons. cbn [unwrap_head settled]. rewrite IH by lia. cbn [rev]. rewrite <- app_assoc. reflexivity.
Qed.

Lemma flatten_object c org o d lo l fuel errs t :
  fault c t = false -> uguard c <? 1 = false ->
  unwrap c o = USeq lo -> somes lo = map IPy l -> S (length l) < fuel ->
  flatten fuel 0 c [(org, QObj o, d)] [] errs t = FlOk (map (raw c org (S d)) l) errs (S t).
Proof.
  intros F G Hu Hs L. destruct fuel as [|fuel]; [lia|].
  rewrite flatten_cons, unwrap_head_obj, Hu, Hs, app_nil_r by assumption. unfold pushed. rewrite map_map.
  cbn [q_of better_origin]. apply (flatten_raw c org (S d) l fuel 1 [] errs (S t)). lia.
Qed.

Lemma dropge_raw c org d l : dropge d (requeue (map (raw c org d) l)) = [].
Proof.
  unfold requeue. induction l as [|f l IH]; [reflexivity|].
  cbn [map raw dropge fst snd]. rewrite Nat.leb_refl. exact IH.
Qed.

Lemma requeued_obj c org d x l :
  requeued c (EOne (RItem (IObj x))) d (map (raw c org d) l) = ([(better_origin c (QObj x) None, QObj x, d)], []).
Proof. unfold requeued. rewrite dropge_raw. destruct l; reflexivity. Qed.

Lemma ctx_step_off c runner f errs t :
  with_ctx c = false -> ctx_step c runner f errs t = ([], errs, t, None).
Proof. intros H. unfold ctx_step. rewrite H. reflexivity. Qed.

Definition shown (c : cfg) (f : nat) : bool * list err :=
  match elab c f with ERaise => (false, [EElab f]) | _ => (prehide c f, []) end.

Lemma shown_ok c f : elab c f <> ERaise -> shown c f = (prehide c f, []).
Proof. unfold shown. destruct (elab c f); congruence. Qed.

(* a hook that raised is requeued like PRUNE, and so is ERaise by [requeued]: hence the r *)
Lemma elab_step_quiet c f errs t :
  fault c t = false -> (elab c f = ERaise -> g_elab (grd c) = true) ->
  exists r, requeued c r = requeued c (elab c f) /\
  elab_step c f errs t = (r, rev (snd (shown c f)) ++ errs, fst (shown c f), S t, None).
Proof.
  intros F G. unfold elab_step, shown. rewrite F.
  destruct (elab c f); try (eexists; split; reflexivity).
  rewrite G by reflexivity. exists (ESeq []). split; reflexivity.
Qed.

Lemma run_step_frame self c f org d rest errs1 t1 cx errs2 t2 out t :
  ctx_step c (child_of self c) f errs1 t1 = (cx, errs2, t2, None) ->
  fault c t2 = false -> (elab c f = ERaise -> g_elab (grd c) = true) ->
  run_step self false c (FlOk ((QFr f org, d) :: rest) errs1 t1) out t =
  self false c (fst (requeued c (elab c f) d rest)) (snd (requeued c (elab c f) d rest))
       (rev (snd (shown c f)) ++ errs2) (FOut f (fst (shown c f)) org cx :: out) (S t2).
Proof.
  intros C F G. cbn [run_step]. rewrite C.
  destruct (elab_step_quiet c f errs2 t2 F G) as (r & R & ->). rewrite R. reflexivity.
Qed.

Lemma run_frame fuel c f org d rest errs out t :
  with_ctx c = false -> fault c t = false -> (elab c f = ERaise -> g_elab (grd c) = true) ->
  run (S fuel) false c [] ((QFr f org, d) :: rest) errs out t =
  run fuel false c (fst (requeued c (elab c f) d rest)) (snd (requeued c (elab c f) d rest))
      (rev (snd (shown c f)) ++ errs) (FOut f (fst (shown c f)) org [] :: out) (S t).
Proof.
  intros W F G. rewrite run_S, flatten_nil, rev_involutive.
  apply run_step_frame; [apply ctx_step_off, W|exact F|exact G].
Qed.
