(* C12 — customizations bind to exactly the code that runs; every customize option works.
   About the model functions of M_Dispatch.v that the correspondence harness/c12.py evaluates:
   get_code, irun/istep, register_all/dispatch, customize/run_hook/walk. *)
From Coq Require Import String.
Require Import Base M_Dispatch P_Dispatch.

(* for ALL towers: get_code (no names) is the function at the bottom of the tower — the code that
   runs when a partial/bound/class/static method is called, the decorated original under wraps —
   and TypeError iff there is none *)
Theorem C12_get_code_tower : forall t,
  get_code t [] = match innermost t with Some c => GOk c | None => GErr ETypeError end.
Proof. intros t. rewrite get_code_spec. destruct (innermost t); reflexivity. Qed.
Print Assumptions C12_get_code_tower.

(* the fuel of the model's loops never runs out *)
Theorem C12_get_code_total : forall t names, get_code t names <> GErr EOutOfFuel.
Proof.
  intros t names. rewrite get_code_spec. destruct (innermost t); [apply walk_names_fuel_free|discriminate].
Qed.
Print Assumptions C12_get_code_total.

(* for ALL towers and name paths: the result is the reference resolution (first code constant of
   that name at each level, ValueError naming the failing position otherwise) and nothing else *)
Theorem C12_nested : forall t names c, innermost t = Some c ->
  forall res, get_code t names = res <-> Resolves c names 0 res.
Proof.
  intros t names c Hi res. rewrite get_code_spec, Hi. split.
  - intros <-. apply walk_names_sound.
  - intros H. symmetry. apply Resolves_deterministic, H.
Qed.
Print Assumptions C12_nested.

(* for ALL operation sequences from ANY well-formed IdentityDict: the invariant is kept and every
   observation is one that a finite map on identities allows *)
Theorem C12_identity_refines_map : forall ops d, wf k_id d ->
  wf k_id (fst (irun d ops)) /\ spec_run (abs d) ops (snd (irun d ops)) (abs (fst (irun d ops))).
Proof. exact irun_refines. Qed.
Print Assumptions C12_identity_refines_map.

(* ... in particular from the empty IdentityDict *)
Theorem C12_identity_refines_map_fresh : forall ops,
  spec_run fempty ops (snd (irun [] ops)) (abs (fst (irun [] ops))).
Proof. intros ops. apply (irun_refines ops []), wf_nil. Qed.
Print Assumptions C12_identity_refines_map_fresh.

(* an equal-but-distinct key misses (and the stored key hits) *)
Theorem C12_equal_but_distinct_misses : forall (d : kdict) k1 k2 v,
  k_cls k1 = k_cls k2 -> k_id k1 <> k_id k2 -> id_getitem k_id d k2 = None ->
  id_getitem k_id (id_setitem k_id d k1 v) k1 = Some v /\
  id_getitem k_id (id_setitem k_id d k1 v) k2 = None.
Proof.
  intros d k1 k2 v _ Hne Hm. split; [apply setitem_same_identity|].
  rewrite setitem_other_identity; auto.
Qed.
Print Assumptions C12_equal_but_distinct_misses.

(* for ALL registration sequences on ANY registry: dispatch on a code identity gives the LAST
   registration whose target resolves to that very code object, else what was there before *)
Theorem C12_latest_wins : forall (H : Type) l (r : registry H) i,
  dispatch (fst (register_all r l)) i =
  match latest l i with Some h => Some h | None => dispatch r i end.
Proof. exact @latest_wins. Qed.
Print Assumptions C12_latest_wins.

(* for ALL option values, both forms, ANY prior registry, ANY target that resolves: frames running
   exactly that code object get the documented effect of every option, all other code identities
   dispatch as before *)
Theorem C12_customize : forall f (r0 : registry hook) t names o c,
  get_code t names = GOk c ->
  let r := fst (customize f r0 t names o) in
  snd (customize f r0 t names o) = ROk /\
  (forall fr next, f_code fr = code_id c ->
     documented_effect o fr next (run_hook (dispatch r (f_code fr)) fr next)) /\
  (forall i, i <> code_id c -> dispatch r i = dispatch r0 i).
Proof.
  intros f r0 t names o c Hg. rewrite (customize_ok f r0 t names o c Hg). simpl. split; [reflexivity|]. split.
  - intros fr next Hc. rewrite dispatch_setitem, Hc, Nat.eqb_refl. apply run_custom_effect.
  - intros i Hi. rewrite dispatch_setitem. apply Nat.eqb_neq in Hi. rewrite Hi. reflexivity.
Qed.
Print Assumptions C12_customize.

(* a target that does not resolve: the TypeError / ValueError of get_code, registry unchanged *)
Theorem C12_customize_error : forall f (r0 : registry hook) t names o e,
  get_code t names = GErr e -> customize f r0 t names o = (r0, RErr e).
Proof.
  intros f r0 t names o e Hg. destruct f; unfold customize, customize_direct, register; rewrite Hg; reflexivity.
Qed.
Print Assumptions C12_customize_error.

(* finite sweep, bound stated: 2 forms x 2^3 flags x 4 elaborate kinds = 64 combinations on a
   3-frame chain, observed through walk *)
Theorem C12_customize_sweep :
  forall f h hl p e, In f [Direct; Decorator] -> In h bools -> In hl bools -> In p bools -> In e sweep_elabs ->
  walk 1 (fst (customize f [] (TPartial (TFn (sweep_code 1))) [] (Opts h hl p e))) sweep_stack
  = sweep_expected (Opts h hl p e).
Proof.
  (* hide and hide_line are only copied into the result: they stay symbolic *)
  intros f h hl p e _ _ _ _ He.
  destruct He as [<-|[<-|[<-|[<-|[]]]]]; destruct f, p; reflexivity.
Qed.
Print Assumptions C12_customize_sweep.

(* walk (what the correspondence observes through extract()) against its fuel-free reference *)
Theorem C12_walk_sound : forall fuel r st fs cs, walk fuel r st = WOk fs cs -> Walk r st fs cs.
Proof. exact walk_sound. Qed.
Print Assumptions C12_walk_sound.

(* ... and with enough fuel [walk] finds every walk of the reference *)
Theorem C12_walk_complete : forall r st fs cs,
  Walk r st fs cs -> exists fuel, forall fuel', fuel <= fuel' -> walk fuel' r st = WOk fs cs.
Proof. exact walk_complete. Qed.
Print Assumptions C12_walk_complete.
