(* P_Chain_Origin.v — C16 on whole suspended chains: corollaries of P_Chain.frames_eq_path and of
   P_Frames_Origin. *)
Require Import Base M_Frames M_Frames_Fault P_Frames_Fault P_Frames_Origin M_Chain P_Chain.

Lemma ref_path_owner : forall ch pos f p,
  In (f, p) (ref_path ch pos) ->
  pos <= p /\ exists k r next, node_at ch (p - pos) = Link k (Some f) r next.
Proof.
  induction ch as [| |k fr r next IH|t IH|a IH|a IH]; intros pos f p H; simpl in H; try contradiction.
  1: destruct fr as [f0|]; [|contradiction]; destruct H as [E|H].
  1: { inversion E; subst. split; [lia|]. rewrite Nat.sub_diag. simpl. eauto. }
  (* the frame lies further down: one step along the chain *)
  all: apply IH in H; destruct H as [L (k' & r' & n' & E)]; split; [lia|].
  all: replace (p - pos) with (S (p - S pos)) by lia; simpl; eauto.
Qed.

Lemma chain_origins ch sl wc s fo :
  wf_susp ch = true -> is_nil ch = false -> 2 * chain_len ch + 2 <= default_fuel ->
  extract (chain_cfg ch sl wc all_guards 100) chain_root = Ok s -> In fo (s_frames s) ->
  exists o k r next, f_org fo = Some o /\ node_at ch o = Link k (Some (f_py fo)) r next.
Proof.
  intros W N F E Hin. rewrite (frames_eq_path ch sl wc W N F) in E. inversion E; subst s. clear E.
  unfold ref_stack in Hin. simpl in Hin. apply in_map_iff in Hin. destruct Hin as [[f p] [<- Hin]].
  apply ref_path_owner in Hin. destruct Hin as [_ (k & r & next & En)]. rewrite Nat.sub_0_r in En.
  exists p, k, r, next. split; [reflexivity|exact En].
Qed.

Lemma wf_susp_child ch : wf_susp ch = true -> wf_susp (child ch) = true.
Proof.
  destruct ch as [| |k [f|] r next|t|a|a]; simpl; intros H; try reflexivity;
    try (apply andb_true_iff in H; tauto).
  apply andb_true_iff in H. destruct H as [_ H]. destruct next; simpl in *; try discriminate; reflexivity.
Qed.

Lemma wf_susp_node ch : forall o, wf_susp ch = true -> wf_susp (node_at ch o) = true.
Proof.
  intros o. revert ch. induction o as [|o IH]; intros ch H; simpl; [assumption|].
  apply IH. apply wf_susp_child. assumption.
Qed.

Lemma wf_susp_not_running k f r next :
  wf_susp (Link k (Some f) r next) = true -> treated_running k r next = false.
Proof.
  simpl. intros H. apply andb_true_iff in H. exact (suspended_not_running k r next (proj1 H)).
Qed.

Lemma chain_gen_wf ch sl wc g ug : wf_susp ch = true -> gen_wf (chain_cfg ch sl wc g ug).
Proof.
  intros W o f G O. simpl in *. pose proof (wf_susp_node ch o W) as Wn.
  destruct (node_at ch o) as [| |k fr r next|t|a|a] eqn:En; simpl in *; try discriminate.
  subst fr. split; [reflexivity|].
  rewrite (wf_susp_not_running k f r next Wn). simpl. eexists. reflexivity.
Qed.
