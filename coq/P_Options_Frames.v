(* P_Options_Frames.v — C13, with_contexts=False in the frame model M_Frames: no frame of the
   result carries contexts, and frames and leaf are those of the run with contexts. *)
Require Import Base M_Frames P_Frames_Step.

Definition fout_cx (f : fout) : list cout := match f with FOut _ _ _ cx => cx end.
Definition no_cx (l : list fout) : Prop := forall f, In f l -> fout_cx f = [].

Lemma no_cx_rev l : no_cx l -> no_cx (rev l).
Proof. intros A g I. apply A. apply in_rev. exact I. Qed.

Lemma run_off c : with_ctx c = false ->
  forall fuel first tu te errs out_rev t frs lf es t',
    no_cx out_rev ->
    run fuel first c tu te errs out_rev t = (Ok (Stack frs lf es), t') ->
    no_cx frs.
Proof.
  intros OFF. induction fuel as [|fuel IH]; intros first tu te errs out_rev t frs lf es t' N R;
    [discriminate|].
  rewrite run_S in R. apply run_step_Ok in R
    as (te1 & e1 & t1 & _ & [(_ & E & _)|(f & org & d & rest & cx & e2 & t2 & r & e3 & h & t3 & _ & EC & _ & R)]).
  - injection E as -> _ _. exact (no_cx_rev _ N).
  - rewrite ctx_step_off in EC by exact OFF. injection EC as <- _ _.
    assert (N' : no_cx (FOut f h org [] :: out_rev)) by (intros g [<-|I]; auto).
    destruct first.
    + destruct R as [E _]. injection E as -> _ _. exact (no_cx_rev _ N').
    + eapply IH; [exact N'|exact R].
Qed.

(* The contexts step consumes ticks (one per contexts_active_in_frame / fill_context call, plus
   those of nested child extractions), so the k-th-invocation faults of a configuration would
   hit different hook calls in the two runs: the two-run theorem is stated for fault-free
   configurations, where ticks and the accumulated error lists (which differ: context-hook errors
   are only reported by the with-contexts run) never influence control flow.  The second run may
   as well have other tables of contexts: it never looks at them. *)

Definition ctx_off (c : cfg) : cfg :=
  {| unwrap := unwrap c; elab := elab c; prehide := prehide c; attr := attr c; ctxs := ctxs c;
     fill := fill c; fault := fault c; with_ctx := false; grd := grd c; uguard := uguard c |}.
Definition fault_free (c : cfg) : Prop := forall t, fault c t = false.

(* c with other tables for the contexts step: [ctx_off c] is [set_ctx c (ctxs c) (fill c) false] *)
Definition set_ctx (c : cfg) (cx : nat -> cres) (fl : nat -> fres) (wc : bool) : cfg :=
  {| unwrap := unwrap c; elab := elab c; prehide := prehide c; attr := attr c; ctxs := cx;
     fill := fl; fault := fault c; with_ctx := wc; grd := grd c; uguard := uguard c |}.

Lemma better_origin_off c q fb : better_origin (ctx_off c) q fb = better_origin c q fb.
Proof. reflexivity. Qed.
Lemma frame_origin_off c o f : frame_origin (ctx_off c) o f = frame_origin c o f.
Proof. reflexivity. Qed.

Lemma ctx_off_mkcfg u e a cx fl faults wc g ug :
  ctx_off (mkcfg u e a cx fl faults wc g ug) = mkcfg u e a cx fl faults false g ug.
Proof. reflexivity. Qed.

Section TwoRuns.
Variables (c : cfg) (cx : nat -> cres) (fl : nat -> fres) (wc : bool).
Hypothesis FF : fault_free c.
Local Notation c' := (set_ctx c cx fl wc).

(* error lists and ticks are carried along and never looked at *)
Lemma unwrap_head_sim cnt cur errs t errs' t' :
  match unwrap_head cnt c cur errs t with
  | ULeaf _ _ => exists e2 t2, unwrap_head cnt c' cur errs' t' = ULeaf e2 t2
  | UPush l _ _ => exists e2 t2, unwrap_head cnt c' cur errs' t' = UPush l e2 t2
  | UFail _ => True
  end.
Proof.
  unfold unwrap_head. destruct cur as [f|f o|o|]; [eexists _, _; reflexivity ..| |];
    cbn [fault grd unwrap uguard set_ctx]; rewrite !FF.
  2: destruct (uguard c <? S cnt); [destruct (g_unwrap (grd c))|]; eauto.
  destruct (unwrap c o) as [|i|l|l b|].
  5: destruct (g_unwrap (grd c)); eauto.
  all: destruct (uguard c <? S cnt); [destruct (g_unwrap (grd c)); eauto|]; eauto.
  rewrite (iter_steps_ff c FF), (iter_steps_ff c' FF).
  destruct b; [destruct (g_iter (grd c))|]; eauto.
Qed.

Lemma flatten_sim : forall fuel cnt tu te errs t errs' t' te1 e1 t1,
  flatten fuel cnt c tu te errs t = FlOk te1 e1 t1 ->
  exists e2 t2, flatten fuel cnt c' tu te errs' t' = FlOk te1 e2 t2.
Proof.
  induction fuel as [|fuel IH]; [discriminate|].
  intros cnt [|[[org cur] d] tu] te errs t errs' t' te1 e1 t1 H.
  - rewrite flatten_nil in H |- *. injection H as <- _ _. eauto.
  - rewrite flatten_cons in H |- *.
    pose proof (unwrap_head_sim cnt cur errs t errs' t') as S.
    destruct (unwrap_head cnt c cur errs t); try discriminate H;
      destruct S as (e2 & t2 & ->); eapply IH; exact H.
Qed.

Lemma elab_sim f errs t errs' t' :
  exists e', elab_step c' f errs' t'
             = let '(r, _, h, _, x) := elab_step c f errs t in (r, e', h, S t', x).
Proof.
  unfold elab_step. cbn [fault grd elab prehide set_ctx]. rewrite !FF.
  destruct (elab c f); [| | |destruct (g_elab (grd c))]; eexists; reflexivity.
Qed.
End TwoRuns.

Definition core (f : fout) : nat * bool * option nat := match f with FOut f h o _ => (f, h, o) end.
Definition frames_of (s : stack) : list fout := match s with Stack frs _ _ => frs end.
Definition leaf_of (s : stack) : leaf := match s with Stack _ lf _ => lf end.

Lemma run_sim c (FF : fault_free c) cx fl :
  forall fuel first tu te errs out t errs' out' t' s tf,
  run fuel first c tu te errs out t = (Ok s, tf) ->
  map core out' = map core out ->
  exists s' tf', run fuel first (set_ctx c cx fl false) tu te errs' out' t' = (Ok s', tf')
    /\ map core (frames_of s') = map core (frames_of s) /\ leaf_of s' = leaf_of s.
Proof.
  induction fuel as [|fuel IH]; [discriminate|].
  intros first tu te errs out t errs' out' t' s tf H M.
  rewrite run_S in H |- *. apply run_step_Ok in H
    as (te1 & e1 & t1 & EF & [(L & -> & _)|(f & org & d & rest & cxs & e3 & t3 & r & e4 & h & t4 & -> & _ & EE & H)]);
    destruct (flatten_sim c cx fl false FF _ _ _ _ _ _ errs' t' _ _ _ EF) as (e2 & t2 & ->).
  - rewrite run_step_leaf by exact L. eexists _, _. split; [reflexivity|].
    cbn [leaf_stack frames_of leaf_of]. rewrite !map_rev, M. auto.
  - cbn [run_step]. rewrite ctx_step_off by reflexivity.
    destruct (elab_sim c cx fl false FF f e3 t3 e2 t2) as [e5 ->]. rewrite EE.
    assert (M' : map core (FOut f h org [] :: out') = map core (FOut f h org cxs :: out))
      by (cbn [map core]; rewrite M; reflexivity).
    destruct first.
    + destruct H as [-> _]. eexists _, _. split; [reflexivity|].
      cbn [frames_of leaf_of]. rewrite !map_rev, M'. auto.
    + eapply IH; [exact H | exact M'].
Qed.

Theorem frames_independent_of_contexts c cx fl root s :
  fault_free c -> extract c root = Ok s ->
  exists s', extract (set_ctx c cx fl false) root = Ok s'
    /\ map core (frames_of s') = map core (frames_of s)
    /\ leaf_of s' = leaf_of s
    /\ no_cx (frames_of s').
Proof.
  intros FF E. apply extract_is_run in E as [tf R]. rewrite extract_unfold.
  destruct (run_sim c FF cx fl _ _ _ _ _ _ _ [] [] 0 s tf R eq_refl) as (s' & tf' & R' & A & B).
  exists s'. change (root_q (set_ctx c cx fl false) root) with (root_q c root). rewrite R'.
  repeat split; auto.
  destruct s' as [frs lf es]. eapply (run_off (set_ctx c cx fl false) eq_refl); [|exact R'].
  intros f [].
Qed.

(* the hypotheses are met by a non-trivial input: contexts with a nested child extraction, a
   contexts hook that raises (so the error lists of the two runs differ), an inserting
   elaborate_frame hook *)
Definition ex_cfg : cfg :=
  mkcfg [(0, USeq [Some (IPy 0); Some (IObj 1)]); (1, UOne (IPy 1)); (2, UOne (IPy 3))]
        [(0, (ESeq [RItem (IPy 2); RNext], false))] []
        [(0, CtxOk [5; 6]); (1, CtxRaise); (2, CtxOk [7])] [(5, FillOk [IObj 2]); (6, FillRaise)]
        [] true all_guards 100.

Example ex_frames_independent :
  fault_free ex_cfg
  /\ extract ex_cfg (IObj 0)
     = Ok (Stack [FOut 0 false None [COut 5 [Stack [FOut 3 true None []] LNone []]; COut 6 []];
                  FOut 2 true None [COut 7 []]; FOut 1 true None []] LNone [EFill 6; ECtx 1])
  /\ extract (ctx_off ex_cfg) (IObj 0)
     = Ok (Stack [FOut 0 false None []; FOut 2 true None []; FOut 1 true None []] LNone []).
Proof. split; [exact (fun _ => eq_refl)|]. split; vm_compute; reflexivity. Qed.
