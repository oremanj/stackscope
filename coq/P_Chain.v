(* P_Chain.v — C03: M_Frames.extract on a compiled chain of suspended links returns the reference
   path. *)
Require Import Base M_Frames P_Frames_Step P_Options_Frames M_Chain.

Lemma node_at_S ch pos : node_at ch (S pos) = child (node_at ch pos).
Proof.
  revert ch; induction pos as [|p IH]; intro ch; [reflexivity|].
  change (node_at ch (S (S p))) with (node_at (child ch) (S p)). rewrite IH. reflexivity.
Qed.

(* what the inner loop leaves in to_elaborate for a sub-chain at position pos, depth d *)
Fixpoint entries (s : chain) (pos d : nat) : list tent :=
  match s with
  | Link _ (Some f) _ n => (QFr f (Some pos), S d) :: entries n (S pos) (S d)
  | Link _ None _ _ => []
  | CoroWrapper t | ASend t | AThrow t => entries t (S pos) (S d)
  | Leaf => [(QObj pos, d)]
  | Nil => []
  end.

(* pushes it takes from s to reach a frame or a leaf *)
Definition hops (s : chain) : nat :=
  match s with CoroWrapper _ | ASend _ | AThrow _ => 2 | _ => 1 end.

Lemma suspended_not_running k r n : suspended k r n = true -> treated_running k r n = false.
Proof. destruct k, r, n; simpl; intros; try reflexivity; discriminate. Qed.

Section Chain.
Variables (ch : chain) (sl : nat -> list nat) (cx : nat -> cres) (fl : nat -> fres)
          (wc : bool) (g : guards) (ug : nat).
Local Notation c := (chain_cfg_gen ch sl cx fl wc g ug).

Lemma bo_link pos fb k fr r n :
  node_at ch pos = Link k fr r n -> better_origin c (QObj pos) fb = Some pos.
Proof. intros H. unfold better_origin. simpl. rewrite H. reflexivity. Qed.

Lemma fo_link pos k f r n :
  node_at ch pos = Link k (Some f) r n -> frame_origin c (Some pos) f = Some pos.
Proof. intros H. unfold frame_origin. simpl. rewrite H. simpl. rewrite Nat.eqb_refl. reflexivity. Qed.

(* The unwrap loop on the queue entry of the sub-chain s at position pos (no entry if s is Nil:
   the awaiter's cr_await is None).  The progress guard never fires: it counts the pushes since
   the last frame, and a well-formed chain has at most one frameless object between two frames. *)
Lemma flatten_chain :
  forall s pos d cnt org k te errs t,
    node_at ch pos = s -> wf_susp s = true -> 2 <= ug -> cnt + hops s <= 2 ->
    flatten (S (chain_len s * 2 + k)) cnt c (pushed c org d (somes [child_item s pos])) te errs t
    = FlOk (rev te ++ entries s pos d) errs (chain_len s + t).
Proof.
  induction s as [| |kd fr r n IH|u IH|u IH|u IH]; intros pos d cnt org k te errs t Hn Hwf Hug Hcnt;
    assert (Hlt : (uguard c <? S cnt) = false) by (apply Nat.ltb_ge; simpl in *; lia);
    unfold child_item; cbn [is_nil somes pushed map q_of entries chain_len]; cbn [Nat.mul Nat.add].
  1: { (* Nil *) rewrite app_nil_r. apply flatten_nil. }
  all: rewrite flatten_cons, unwrap_head_obj by (reflexivity || exact Hlt); cbn [unwrap chain_cfg_gen];
    rewrite Hn; cbn [urule].
  1: { (* Leaf *) apply flatten_nil. }
  1: { (* Link: (frame, awaited object) *)
       assert (Hch : node_at ch (S pos) = n) by (rewrite node_at_S, Hn; reflexivity).
       destruct fr as [f|]; simpl in Hwf; apply andb_true_iff in Hwf as [Hs Hw].
       - rewrite (suspended_not_running _ _ _ Hs), (bo_link pos org _ _ _ _ Hn).
         cbn [option_map somes pushed map app q_of].
         rewrite flatten_cons, app_nil_r. cbn [unwrap_head settled better_origin]. rewrite (fo_link _ _ _ _ _ Hn).
         rewrite (IH (S pos) (S d) 0 (Some pos) k _ errs (S t) Hch Hw Hug) by (destruct n; simpl; lia).
         cbn [rev]. rewrite <- app_assoc, <- plus_n_Sm. reflexivity.
       - (* exhausted *)
         clear IH. destruct r; [discriminate|]. destruct n; try discriminate.
         replace (treated_running kd false Nil) with false by (destruct kd; reflexivity).
         unfold child_item. cbn [option_map is_nil somes pushed map chain_len Nat.add].
         rewrite !app_nil_r. apply flatten_nil. }
  (* CoroWrapper, ASend, AThrow: one more hop, to the object they refer to *)
  all: simpl in Hwf; apply andb_true_iff in Hwf as [Hk Hw].
  all: assert (Hch : node_at ch (S pos) = u) by (rewrite node_at_S, Hn; reflexivity).
  all: rewrite Hk, (plus_n_Sm (chain_len u) t), (plus_n_Sm (chain_len u * 2) k).
  all: destruct u as [| |[] fr r n| | |]; try discriminate Hk.
  all: apply (IH (S pos) (S d) (S cnt) _ (S k) te errs (S t) Hch Hw Hug); simpl in *; lia.
Qed.
End Chain.

Section Plain.
Variable c : cfg.
Hypotheses (no_fault : fault_free c)
           (no_elab : forall f, elab c f = ENone) (no_hide : forall f, prehide c f = false)
           (no_ctx : forall runner f errs t, exists t', ctx_step c runner f errs t = ([], errs, t', None)).

Lemma run_entries : forall s pos d fuel errs out t t0,
  chain_len s <= fuel ->
  exists t', run_step (run fuel) false c (FlOk (entries s pos d) errs t) out t0
             = (Ok (Stack (rev out ++ map (fun fp => FOut (fst fp) false (Some (snd fp)) []) (ref_path s pos))
                          (ref_leaf s pos) (rev errs)), t').
Proof.
  induction s as [| |k [f|] r n IH|u IH|u IH|u IH]; intros pos d fuel errs out t t0 L;
    cbn [chain_len] in L; cbn [entries ref_path ref_leaf map fst snd].
  3: { destruct fuel as [|fuel]; [lia|].
       destruct (no_ctx (child_of (run (S fuel)) c) f errs t) as [t1 C].
       rewrite (run_step_frame _ _ _ _ _ _ _ _ _ _ _ _ _ C) by (auto; rewrite no_elab; discriminate).
       unfold shown. rewrite no_elab, no_hide. cbn [requeued fst snd rev app].
       rewrite run_S, flatten_nil, rev_involutive.
       destruct (IH (S pos) (S d) fuel errs (FOut f false (Some pos) [] :: out) (S t1) (S t1)) as [t2 ->]; [lia|].
       exists t2. cbn [rev]. rewrite <- app_assoc. reflexivity. }
  4-6: apply IH; lia.
  all: exists t; rewrite app_nil_r; apply run_step_leaf; exact I.
Qed.
End Plain.

Lemma chain_ctx_trivial ch sl wc g ug runner f errs t :
  exists t', ctx_step (chain_cfg ch sl wc g ug) runner f errs t = ([], errs, t', None).
Proof. destruct wc; eexists; reflexivity. Qed.

Lemma frames_eq_path_fuel :
  forall ch sl wc g ug fuel,
    wf_susp ch = true -> is_nil ch = false -> 2 <= ug -> 2 * chain_len ch + 2 <= fuel ->
    fst (run fuel false (chain_cfg ch sl wc g ug) (root_q (chain_cfg ch sl wc g ug) chain_root) [] [] [] 0)
    = Ok (ref_stack ch).
Proof.
  intros ch sl wc g ug fuel Hwf Hnil Hug Hfuel.
  (* the fuel as [flatten_chain] wants it: two inner steps per object, one to end, surplus k *)
  replace fuel with (S (chain_len ch * 2 + (fuel - chain_len ch * 2 - 1))) by lia.
  unfold chain_cfg. set (c := chain_cfg_gen ch sl _ _ wc g ug).
  pose proof (flatten_chain ch sl (fun _ => CtxOk []) (fun _ => FillOk []) wc g ug ch 0 0 0 None
                (fuel - chain_len ch * 2 - 1) [] [] 0 eq_refl Hwf Hug) as F.
  fold c in F. unfold child_item in F. rewrite Hnil in F. cbn [somes pushed map q_of rev app] in F.
  rewrite run_S. unfold root_q, chain_root. cbn [q_of rev]. rewrite F by (destruct ch; simpl; lia).
  destruct (run_entries c (fun _ => eq_refl) (fun _ => eq_refl) (fun _ => eq_refl)
              (chain_ctx_trivial ch sl wc g ug) ch 0 0 (chain_len ch * 2 + (fuel - chain_len ch * 2 - 1))
              [] [] (chain_len ch + 0) 0) as [t2 ->]; [lia|].
  reflexivity.
Qed.

Lemma frames_eq_path :
  forall ch sl wc,
    wf_susp ch = true -> is_nil ch = false -> 2 * chain_len ch + 2 <= default_fuel ->
    extract (chain_cfg ch sl wc all_guards 100) chain_root = Ok (ref_stack ch).
Proof.
  intros ch sl wc Hwf Hnil Hfuel. rewrite extract_unfold.
  apply frames_eq_path_fuel; auto. apply Nat.leb_le. reflexivity.
Qed.

Definition core (f : fout) : nat * bool * option nat := match f with FOut f h o _ => (f, h, o) end.
Definition strip (s : stack) : list (nat * bool * option nat) * leaf :=
  match s with Stack frs lf _ => (map core frs, lf) end.

Definition ex_chain : chain :=
  Link KCoro (Some 10) false
    (CoroWrapper (Link KCoro (Some 12) false
       (ASend (Link KAGen (Some 14) true          (* blocked in an await: ag_running = True *)
          (AThrow (Link KAGen (Some 16) true
             (Link KGen (Some 17) false Leaf))))))).

Example ex_chain_hyps :
  wf_susp ex_chain = true /\ is_nil ex_chain = false /\ 2 * chain_len ex_chain + 2 <= default_fuel.
Proof. repeat split; try reflexivity. apply Nat.leb_le. vm_compute. reflexivity. Qed.

Example ex_chain_path :
  ref_stack ex_chain
  = Stack [FOut 10 false (Some 0) []; FOut 12 false (Some 2) []; FOut 14 false (Some 4) [];
           FOut 16 false (Some 6) []; FOut 17 false (Some 7) []] (LOne (QObj 8)) [].
Proof. reflexivity. Qed.

(* a context table under which the with-contexts run is a Stack with contexts and a nested
   child extraction, so the hypothesis of C03_contexts_flag_irrelevant is satisfiable non-trivially *)
Definition ex_cx (f : nat) : cres := if f =? 10 then CtxOk [7; 8] else if f =? 14 then CtxRaise else CtxOk [].
Definition ex_fl (c : nat) : fres := if c =? 7 then FillOk [IObj 4] else FillRaise.

Example ex_ctx_ok :
  match extract (chain_cfg_gen ex_chain (fun _ => []) ex_cx ex_fl true all_guards 100) chain_root with
  | Ok (Stack (FOut 10 _ _ (COut 7 [Stack (_ :: _) _ _] :: _) :: _) _ (_ :: _)) => True
  | _ => False
  end.
Proof. vm_compute. exact I. Qed.
