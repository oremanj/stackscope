(* P_GreenbackFrames.v -- composition of the greenback model with the general extract_iter model.

   M_Frames (C10) describes a hook as a static table frame -> result; the greenback hooks decide
   by looking at next_inner.  For a given scenario the next frame of every hook frame inside the
   list it was unwrapped into is known, so the decisions of M_Greenback.elab can be tabulated
   ([gb_cfg]): objects unwrap to the recorded frame lists, every frame's elaborate_frame entry is
   the M_Greenback decision for (frame, next frame in its list), its hide flag is M_Greenback.hidden.
   Running the GENERAL machine M_Frames.run (two deques, depths, replace/prune rules, guard) on
   that table gives exactly the frames and hide flags of the specialised walk
   M_Greenback.gb_extract, for every scenario and every fuel that covers the unwrapped lists
   ([greenback_composes_fuel]); the fuel of M_Frames.extract covers those of C15
   ([greenback_composes]).  Two observations carry the proof:
   - without contexts and faults, an object that unwraps to raw frames is walked frame by frame
     until a hook answers with an object, which then replaces the inward rest ([run_object]):
     this is M_Greenback.pass;
   - a table looked up by frame alone can stand for hooks that look at next_inner, because in the
     recorded lists what a hook answers does not depend on where its frame stands ([agrees],
     [unwrap_agrees]), and fcode is injective. *)
Require Import Base M_Frames M_Greenback P_Frames_Step P_Greenback.

(* the fourteen fixed kinds are numbered from 0, level k sits at 20 + 3k + {0,1,2} *)
Definition fcode (k : fk) : nat :=
  match k with
  | FShimCoro => 0 | FShim => 1 | FTramp => 2 | FSend => 3 | FTarget => 4 | FLeaf => 5
  | FNested => 6 | FProbe => 7 | FWait => 8 | FWTR => 9 | FSwitch => 10 | FSendE => 11 | FAdapt => 12 | FDunder => 13
  | FA k => 20 + 3 * k | FS k => 21 + 3 * k | FAwait k => 22 + 3 * k
  end.

Definition ocode (o : obj) : nat :=
  match o with OTask => 0 | OChild => 1 | OOrigCoro => 2 | OCoro k => 3 + k end.

Definition to_eres (r : hres) : eres :=
  match r with
  | HNone => ENone
  | HObj x => EOne (RItem (IObj (ocode x)))
  | HRaise => ERaise
  end.

Fixpoint entries (sc : scenario) (l : list fk) : list (nat * (eres * bool)) :=
  match l with
  | [] => []
  | k :: rest =>
      (fcode k, (to_eres (M_Greenback.elab sc k (hd_error rest)), M_Greenback.hidden k)) :: entries sc rest
  end.

(* in the recorded lists a hook answers only with OChild, OOrigCoro or OCoro 0 ([answer_objs]);
   OCoro k for k > 0 unwraps to nothing *)
Definition gb_objs : list obj := [OTask; OChild; OOrigCoro; OCoro 0].

Definition gb_cfg (sc : scenario) : cfg :=
  mkcfg
    (map (fun o => (ocode o, USeq (map (fun k => Some (IPy (fcode k))) (M_Greenback.unwrap sc o)))) gb_objs)
    (concat (map (fun o => entries sc (M_Greenback.unwrap sc o)) gb_objs))
    [] [] [] [] false all_guards 100.

Definition proj (f : fout) : nat * bool := match f with FOut n h _ _ => (n, h) end.

Definition nb_eqb (a b : nat * bool) : bool := (fst a =? fst b) && Bool.eqb (snd a) (snd b).

Definition compose_ok (sc : scenario) : bool :=
  match M_Frames.extract (gb_cfg sc) (IObj (ocode OTask)), gb_extract sc with
  | Ok (Stack fr LNone []), GOk l =>
      list_eqb nb_eqb (map proj fr) (map (fun e : fk * bool => (fcode (fst e), snd e)) l)
  | _, _ => false
  end.

Section Plain.
Variable c : cfg.
Hypothesis no_ctx : with_ctx c = false.
Hypothesis no_fault : forall t, fault c t = false.
Hypothesis guard_pos : uguard c <? 1 = false.

Definition emit (org : option nat) (f : nat) : fout := FOut f (prehide c f) (frame_origin c org f) [].
Definition handed (d : nat) (k : option nat) : list qent :=
  match k with Some x => [(better_origin c (QObj x) None, QObj x, d)] | None => [] end.

(* walk l em k: elaborating the frames l one after the other yields em and stops at the first
   frame whose hook answers with an object k, or at the end of l *)
Inductive walk : list nat -> list nat -> option nat -> Prop :=
  | walk_nil : walk [] [] None
  | walk_keep f r em k : M_Frames.elab c f = ENone -> walk r em k -> walk (f :: r) (f :: em) k
  | walk_repl f r x : M_Frames.elab c f = EOne (RItem (IObj x)) -> walk (f :: r) [f] (Some x).

Lemma walk_length l em k : walk l em k -> length em <= length l.
Proof. induction 1; cbn [length]; lia. Qed.

Lemma run_frames org d l em k : walk l em k -> forall fuel errs out t,
  M_Frames.run (length em + fuel) false c [] (map (raw c org d) l) errs out t =
  M_Frames.run fuel false c
    (handed d k) []
    errs (rev (map (emit org) em) ++ out) (length em + t).
Proof.
  induction 1 as [|f r em k E W IH|f r x E]; intros fuel errs out t; cbn [map length Nat.add].
  - reflexivity.
  - unfold raw at 1. rewrite run_frame by (auto; rewrite E; discriminate). unfold shown. rewrite E. cbn [requeued fst snd rev app].
    rewrite IH. cbn [rev]. rewrite <- app_assoc, Nat.add_succ_r. reflexivity.
  - unfold raw at 1. rewrite run_frame by (auto; rewrite E; discriminate). unfold shown. rewrite E, requeued_obj. reflexivity.
Qed.

(* one object: a turn flattens it into its frames (which takes their number + 2 steps of the
   inner loop's fuel) and elaborates the first; each further frame is one turn *)
Lemma run_object org o d lo l em k fuel errs out t :
  M_Frames.unwrap c o = USeq lo -> somes lo = map IPy l -> walk l em k -> length l + 2 <= length em + fuel ->
  M_Frames.run (length em + fuel) false c [(org, QObj o, d)] [] errs out t =
  M_Frames.run fuel false c
    (handed (S d) k) []
    errs (rev (map (emit org) em) ++ out) (length em + S t).
Proof.
  intros Hu Hs W L. rewrite <- (run_frames org (S d) l em k W).
  destruct (length em + fuel) as [|n] eqn:E; [lia|].
  apply (run_flattened n c _ []), (flatten_object c org o d lo l); auto. lia.
Qed.
End Plain.

Lemma lookup_map_inj {A B} (key : A -> nat) (val : A -> B) d l a :
  (forall b, key a = key b -> a = b) -> In a l -> lookup d (map (fun b => (key b, val b)) l) (key a) = val a.
Proof.
  intros I. induction l as [|b l IH]; intros H; [destruct H|]. cbn [map lookup].
  destruct (key a =? key b) eqn:E.
  - apply Nat.eqb_eq, I in E. subst b. reflexivity.
  - destruct H as [->|H]; [rewrite Nat.eqb_refl in E; discriminate|exact (IH H)].
Qed.

Definition decode (n : nat) : fk :=
  if n <? 20
  then nth n [FShimCoro; FShim; FTramp; FSend; FTarget; FLeaf; FNested; FProbe; FWait; FWTR; FSwitch; FSendE;
              FAdapt; FDunder] FProbe
  else match (n - 20) mod 3 with
       | 0 => FA ((n - 20) / 3) | 1 => FS ((n - 20) / 3) | _ => FAwait ((n - 20) / 3)
       end.

Lemma decode_fcode k : decode (fcode k) = k.
Proof.
  destruct k; try reflexivity; unfold decode, fcode;
    (replace (_ <? 20) with false by (symmetry; apply Nat.ltb_ge; lia)).
  - replace (20 + 3 * k - 20) with (0 + k * 3) by lia. rewrite Nat.mod_add, Nat.div_add by discriminate. reflexivity.
  - replace (21 + 3 * k - 20) with (1 + k * 3) by lia. rewrite Nat.mod_add, Nat.div_add by discriminate. reflexivity.
  - replace (22 + 3 * k - 20) with (2 + k * 3) by lia. rewrite Nat.mod_add, Nat.div_add by discriminate. reflexivity.
Qed.

Lemma fcode_inj k k' : fcode k = fcode k' -> k = k'.
Proof. intros H. rewrite <- (decode_fcode k), H. apply decode_fcode. Qed.

(* in list l every hook answers what [ans] says of its frame, whatever comes next *)
Fixpoint agrees (sc : scenario) (ans : fk -> hres) (l : list fk) : Prop :=
  match l with
  | [] => True
  | k :: r => M_Greenback.elab sc k (hd_error r) = ans k /\ agrees sc ans r
  end.

Lemma entries_agrees sc ans l :
  agrees sc ans l -> entries sc l = map (fun k => (fcode k, (to_eres (ans k), hidden k))) l.
Proof. induction l as [|k r IH]; [reflexivity|]. intros [E H]. cbn [entries map]. rewrite E, (IH H). reflexivity. Qed.

Lemma gb_table sc ans o k :
  (forall o, agrees sc ans (M_Greenback.unwrap sc o)) -> In o gb_objs -> In k (M_Greenback.unwrap sc o) ->
  M_Frames.elab (gb_cfg sc) (fcode k) = to_eres (ans k) /\ prehide (gb_cfg sc) (fcode k) = hidden k.
Proof.
  intros A Ho Hk.
  assert (L : lookup (ENone, true) (concat (map (fun o => entries sc (M_Greenback.unwrap sc o)) gb_objs)) (fcode k)
              = (to_eres (ans k), hidden k)).
  { rewrite (map_ext _ (fun o => map (fun k => (fcode k, (to_eres (ans k), hidden k))) (M_Greenback.unwrap sc o)))
      by (intros x; apply entries_agrees, A).
    rewrite <- (map_map (M_Greenback.unwrap sc)), <- concat_map.
    apply (lookup_map_inj fcode (fun k => (to_eres (ans k), hidden k))), in_concat; [intros b; apply fcode_inj|].
    eexists. split; [apply in_map, Ho|exact Hk]. }
  unfold gb_cfg, mkcfg. cbn [M_Frames.elab prehide]. rewrite L. split; reflexivity.
Qed.

Lemma gb_unwrap sc o : In o gb_objs ->
  M_Frames.unwrap (gb_cfg sc) (ocode o) = USeq (map (fun k => Some (IPy (fcode k))) (M_Greenback.unwrap sc o)).
Proof. intros [<-|[<-|[<-|[<-|[]]]]]; reflexivity. Qed.

Definition answer (sc : scenario) (k : fk) : hres :=
  if sc_inside sc then HNone else
  match k with
  | FShim => HObj OChild
  | FTramp => match sc_n sc with 0 => HObj OOrigCoro | S _ => HNone end
  | FAwait 1 => HObj (OCoro 0)
  | _ => HNone
  end.

Lemma answer_objs sc k x : answer sc k = HObj x -> In x gb_objs.
Proof.
  unfold answer. destruct (sc_inside sc); [discriminate|].
  destruct k as [| | | | | | | | | |[|[|m]]| | | | | |]; try discriminate; [|destruct (sc_n sc); [|discriminate]|];
    intros [= <-]; cbn; auto.
Qed.

Lemma agrees_calm sc ans l :
  (forall k, ans k = HNone) -> forallb (fun k => negb (is_switch k)) l = true ->
  is_hook (last l FProbe) = false -> agrees sc ans l.
Proof.
  intros N. induction l as [|k [|k' r] IH]; intros Hs Hl; [exact I|split; [|exact I]|split].
  - rewrite N. apply elab_nohook, Hl.
  - rewrite N. cbn [forallb] in Hs. apply andb_true_iff in Hs as [_ Hs]. apply andb_true_iff in Hs as [Hs _].
    apply elab_next. destruct (is_switch k'); [discriminate|reflexivity].
  - cbn [forallb] in Hs. apply andb_true_iff in Hs as [_ Hs]. exact (IH Hs Hl).
Qed.

(* seen from outside only the innermost await_ has no next frame; on a list spelled out frame
   by frame each conjunct of [agrees] holds by computation *)
Lemma agrees_out n j e aio w err awt m (sc := Build_scenario false n j e aio w) :
  agrees sc (answer sc) (out err awt (S m)).
Proof.
  induction m as [|m IH]; [repeat split|].
  change (out err awt (S (S m))) with
    (FA (S (S m)) :: FS (S (S m)) :: FAwait (S (S m)) :: drv err (S m) :: wrapl awt ++ out err awt (S m)).
  destruct (drv_cases err (S m)) as [-> | ->]; destruct awt; repeat split; exact IH.
Qed.

Lemma unwrap_agrees sc o : agrees sc (answer sc) (M_Greenback.unwrap sc o).
Proof.
  destruct sc as [[] n j err aio awt].
  - destruct o; try exact I. apply agrees_calm; [reflexivity| |]; unfold M_Greenback.unwrap; cbn [sc_inside sc_n sc_j sc_err sc_awt].
    + rewrite !forallb_app, up_noswitch, nested_noswitch. destruct (drv_cases err n) as [-> | ->]; reflexivity.
    + rewrite !app_assoc, last_last. reflexivity.
  - destruct o as [| | |[|k]]; try exact I.
    + repeat split.
    + destruct n as [|m]; [repeat split|].
      change (agrees ?s ?a _) with (agrees s a (FTramp :: drv err (S m) :: FTarget :: out err awt (S m))).
      destruct (drv_cases err (S m)) as [-> | ->]; repeat split; apply agrees_out.
    + destruct aio; repeat split.
    + destruct awt, aio; repeat split.
Qed.

Definition enc (e : fk * bool) : nat * bool := (fcode (fst e), snd e).

Lemma pass_walk sc c ans org : forall l em cont,
  agrees sc ans l ->
  (forall k, In k l -> M_Frames.elab c (fcode k) = to_eres (ans k) /\ prehide c (fcode k) = hidden k) ->
  pass sc l = (em, cont, false) ->
  walk c (map fcode l) (map fcode (map fst em)) (option_map ocode cont)
  /\ map proj (map (emit c org) (map fcode (map fst em))) = map enc em
  /\ forall x, cont = Some x -> exists k, ans k = HObj x.
Proof.
  induction l as [|k r IH]; intros em cont A T P.
  - injection P as <- <-. repeat split; [constructor|discriminate].
  - destruct A as [E A]. cbn [pass] in P. rewrite E in P.
    destruct (T k (or_introl eq_refl)) as [Te Th]. destruct (ans k) as [|x|] eqn:Ek.
    + destruct (pass sc r) as [[em' c'] e'] eqn:Er. injection P as <- <- ->.
      destruct (IH em' c' A (fun k H => T k (or_intror H)) eq_refl) as (W & Pj & C).
      split; [exact (walk_keep c _ _ _ _ Te W)|]. split; [|exact C].
      cbn [map]. rewrite Pj. unfold proj at 1, emit, enc at 1. cbn [fst snd]. rewrite Th. reflexivity.
    + injection P as <- <-. split; [exact (walk_repl c _ _ _ Te)|]. split.
      * cbn [map proj emit enc fst snd]. rewrite Th. reflexivity.
      * intros y [= <-]. exists k. exact Ek.
    + discriminate.
Qed.

(* at most 8 objects are walked (the fuel of gb_extract); none needs more turns than its list is
   long, plus one to end, and its flattening needs the length + 2 *)
Definition fuel_needed (sc : scenario) : nat := 8 * (length (concat (map (M_Greenback.unwrap sc) gb_objs)) + 2).

Lemma length_concat_in {A B} (f : A -> list B) x l : In x l -> length (f x) <= length (concat (map f l)).
Proof.
  induction l as [|y l IH]; [intros []|]. intros [->|H]; cbn [map concat]; rewrite app_length; [lia|]. specialize (IH H). lia.
Qed.

Lemma composes_run sc : forall f o acc l, In o gb_objs -> M_Greenback.run f sc o acc = GOk l ->
  forall fuel org d out t,
  f * (length (concat (map (M_Greenback.unwrap sc) gb_objs)) + 2) <= fuel -> map proj (rev out) = map enc acc ->
  exists fr t', M_Frames.run fuel false (gb_cfg sc) [(org, QObj (ocode o), d)] [] [] out t = (Ok (Stack fr LNone []), t')
                /\ map proj fr = map enc l.
Proof.
  set (c := gb_cfg sc). set (N := length _).
  induction f as [|f IH]; intros o acc l Ho R fuel org d out t F Inv; [discriminate|].
  rewrite P_Greenback.run_S in R. destruct (pass sc (M_Greenback.unwrap sc o)) as [[em cont] e] eqn:P.
  destruct e; [discriminate|].
  destruct (pass_walk sc c (answer sc) org _ _ _ (unwrap_agrees sc o)
              (fun k H => gb_table sc _ o k (unwrap_agrees sc) Ho H) P) as (W & Pj & C).
  pose proof (length_concat_in (M_Greenback.unwrap sc) o gb_objs Ho) as Lo. fold N in Lo.
  pose proof (walk_length c _ _ _ W) as Lw.
  set (n := length (map fcode (map fst em))) in *. rewrite map_length in Lw.
  replace fuel with (n + (fuel - n)) by lia.
  rewrite (run_object c eq_refl (fun _ => eq_refl) eq_refl org (ocode o) d _ _ _ _ _ [] out t
             (gb_unwrap sc o Ho) (eq_trans (somes_map _ _) (eq_sym (map_map fcode IPy _))) W) by (rewrite map_length; lia).
  assert (Inv' : map proj (rev (rev (map (emit c org) (map fcode (map fst em))) ++ out)) = map enc (acc ++ em)).
  { rewrite rev_app_distr, rev_involutive, !map_app, Inv, Pj. reflexivity. }
  destruct cont as [x|]; cbn [option_map].
  - destruct (C x eq_refl) as [k Hk]. apply (IH x _ l (answer_objs sc k x Hk) R); [lia|exact Inv'].
  - destruct (fuel - n) as [|m] eqn:E; [lia|]. rewrite run_nil. injection R as <-. eexists _, _. split; [reflexivity|exact Inv'].
Qed.

Theorem greenback_composes_fuel sc fuel l :
  gb_extract sc = GOk l -> fuel_needed sc <= fuel ->
  exists fr, fst (M_Frames.run fuel false (gb_cfg sc) (root_q (gb_cfg sc) (IObj (ocode OTask))) [] [] [] 0)
             = Ok (Stack fr LNone [])
             /\ map proj fr = map (fun e : fk * bool => (fcode (fst e), snd e)) l.
Proof.
  intros R F.
  destruct (composes_run sc 8 OTask [] l (or_introl eq_refl) R fuel (better_origin (gb_cfg sc) (QObj 0) None) 0 [] 0 F eq_refl) as (fr & t' & E & Pj).
  exists fr. split; [exact (f_equal fst E)|exact Pj].
Qed.

Lemma gb_extract_total sc : exists l, gb_extract sc = GOk l.
Proof.
  destruct sc as [[] n j err aio awt].
  - destruct (greenback_inside n j err aio awt) as (l & H & _). exists l. exact H.
  - destruct (greenback_outside n j err aio awt) as (l & H & _). exists l. exact H.
Qed.

Lemma up_length err awt n : length (up err awt n) <= 6 * n.
Proof. induction n as [|n IH]; [reflexivity|]. cbn [up seg app length]. rewrite app_length. destruct awt; cbn [wrapl length]; lia. Qed.

Lemma out_length err awt n : length (out err awt n) <= 6 * n.
Proof.
  induction n as [|[|n] IH]; [reflexivity|cbn; lia|].
  change (out err awt (S (S n))) with (seg (S (S n)) ++ drv err (S n) :: wrapl awt ++ out err awt (S n)).
  cbn [seg app length]. rewrite app_length. destruct awt; cbn [wrapl length]; lia.
Qed.

Lemma fuel_needed_small inside aio awt n j err : n <= 6 -> j <= 3 ->
  fuel_needed (Build_scenario inside n j err aio awt) <= default_fuel.
Proof.
  (* 62: for n <= 6, j <= 3 the four lists together hold fewer than 60 frames ([up] or [out], at
     most 6n = 36, and at most 16 fixed frames around it), plus the 2 of [fuel_needed] *)
  intros Hn Hj. apply (Nat.le_trans _ (8 * 62)); [|apply Nat.leb_le; reflexivity].
  unfold fuel_needed. cbn [map concat gb_objs]. rewrite !app_length. unfold M_Greenback.unwrap, park.
  cbn [sc_inside sc_n sc_j sc_err sc_aio sc_awt].
  pose proof (up_length err awt n). pose proof (out_length err awt n).
  destruct inside.
  - rewrite !app_length, repeat_length. cbn [length]. lia.
  - destruct n, aio, awt; cbn [length wrapl app]; lia.
Qed.

Lemma greenback_composes inside aio awt n j err :
  n <= 6 -> j <= 3 -> (forall m, err = Some m -> m <= 6) ->
  compose_ok {| sc_inside := inside; sc_n := n; sc_j := j; sc_err := err; sc_aio := aio; sc_awt := awt |} = true.
Proof.
  intros Hn Hj _. set (sc := Build_scenario _ _ _ _ _ _).
  destruct (gb_extract_total sc) as [l R].
  destruct (greenback_composes_fuel sc default_fuel l R (fuel_needed_small _ _ _ _ _ _ Hn Hj)) as (fr & E & Pj).
  unfold compose_ok, extract, extract_t. rewrite E, R, Pj. apply list_eqb_refl.
  intros [a b]. unfold nb_eqb. cbn [fst snd]. rewrite Nat.eqb_refl. destruct b; reflexivity.
Qed.
