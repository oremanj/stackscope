(* C02 — contexts of a frame running on the calling thread are exact, also mid-enter/exit. *)
Require Import Base M_Bytecode M_Analysis M_WithMachine M_Cert P_Cert X_WMExample.

(* For a code object whose certificate passes [checkk KRun]: in EVERY reachable state of the
   with-machine and for EVERY observation made while the frame is executing — from a call in
   the body, from inside __enter__/__aenter__ (BEFORE_WITH: the manager is not listed yet),
   from inside __exit__/__aexit__ (exit CALL or WITH_EXCEPT_START: listed last, exiting,
   whether reached by fall-through, return, break, continue or an exception), from inside an
   awaited __aenter__/__aexit__ coroutine (SEND, f_lasti on its inline cache) — the analysis,
   which only sees the slots below the current handler depth, returns exactly the ground truth. *)
Theorem C02_exact_running : forall v c t ct, checkk v KRun c t ct = true ->
  forall s, reach v c t s ->
  forall lasti st tr, In (true, lasti, st, tr) (obs c s) ->
  trickery v c t true lasti st = TOk (expected tr).
Proof. intros v c t ct Hc s Hr lasti st tr Hin. exact (analysis_exact v KRun c t ct Hc s Hr true lasti st tr Hin (or_intror (conj eq_refl eq_refl))). Qed.
Print Assumptions C02_exact_running.

(* every slot the analysis reads for a running frame lies below the trim depth and holds the
   exit method of the very manager it reports (used by C07: reads are in bounds) *)
Theorem C02_trim_safe : forall v c t ct, checkk v KRun c t ct = true ->
  forall s, reach v c t s ->
  forall lasti st tr, In (true, lasti, st, tr) (obs c s) ->
  forall x i, In x (expected tr) -> c_obj x = Some i ->
  In (VX (c_site x) i) (keep_bottom (trim_depth t lasti) st).
Proof.
  intros v c t ct Hc s Hr l st tr Hin x i Hx Hi.
  pose proof (C02_exact_running v c t ct Hc s Hr l st tr Hin) as Ha.
  destruct (in_expected _ _ Hx) as (e & _ & -> & <- & _).
  exact (trickery_slots _ _ _ true _ _ _ Ha x i Hx Hi).
Qed.
Print Assumptions C02_trim_safe.

Example C02_example_inside_exit :
  exists s, reach V312 ex_code ex_table s /\
            exists lasti st tr, In (true, lasti, st, tr) (obs ex_code s)
                                /\ map (@c_exiting nat) (expected tr) = [true].
Proof.
  eexists. split; [apply (exec_reach _ _ _ ex_path_exit _ _ (reach_init _ _ _)); vm_compute; reflexivity|].
  eexists _, _, _. split; [left; reflexivity|reflexivity].
Qed.
