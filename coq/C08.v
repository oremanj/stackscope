(* C08 — varname of a with-item.  Model: M_Targets.v ([describe] = stackscope._lowlevel.describe_assignment_target,
   [compile_target] = the store sequence CPython 3.11/3.12 emits for an `as` target,
   [render_target] = the reference rendering, [expected] = what the property demands). *)
From Coq Require Import String.
Require Import Base M_Targets P_Targets.
Open Scope string_scope.
Open Scope list_scope.

(* For ALL supported targets, both compiler versions and ALL instruction suffixes, decompiling the
   compiled store sequence yields exactly the reference rendering (never dropped). *)
Theorem C08_decompile_compile : forall v t rest, sup_target v t = true ->
  describe (compile_target v t ++ rest) = DSome (render_target t).
Proof. intros v t rest H. rewrite describe_target, H. reflexivity. Qed.
Print Assumptions C08_decompile_compile.

(* For every with-item of the modelled grammar (no target, supported, or containing arithmetic, walrus,
   keyword/starred calls, tuple displays, stepped slices, 3.11 slices): the result is exactly the
   property's expectation: the rendering if supported, None otherwise. *)
Theorem C08_unsupported_none_or_render : forall v (t : option target) rest,
  describe (compile_item v t ++ rest) = expected v t.
Proof. exact item_expected. Qed.
Print Assumptions C08_unsupported_none_or_render.

(* never a wrong string *)
Theorem C08_never_wrong : forall v (t : option target) rest s,
  describe (compile_item v t ++ rest) = DSome s ->
  exists t', t = Some t' /\ sup_target v t' = true /\ s = render_target t'.
Proof.
  intros v t rest s H. rewrite item_expected in H. now apply expected_some.
Qed.
Print Assumptions C08_never_wrong.

(* the explicit fuel of the model is never exhausted, on any instruction stream *)
Theorem C08_describe_total : forall ins, describe ins <> DFuel.
Proof.
  intros ins. pose proof (describe_nofuel ins) as H. unfold describe.
  destruct (nt (3 * List.length ins + 3) ins []) as [[x q]| |]; [| |contradiction];
    destruct ins as [|[] r]; try discriminate; destruct k; discriminate.
Qed.
Print Assumptions C08_describe_total.

(* the complete varname rule incl. the locals fallback of _contexts_active_by_trickery: the final
   varname is the rendering of a supported target, or - only when nothing could be reconstructed -
   the name of a local bound to the manager object, or None *)
Theorem C08_varname_rule : forall v (t : option target) rest locals obj,
  match final_varname (describe (compile_item v t ++ rest)) locals obj with
  | None => expected v t = DNone
  | Some n =>
      (exists t', t = Some t' /\ sup_target v t' = true /\ n = render_target t') \/
      (expected v t = DNone /\ In (n, obj) locals)
  end.
Proof.
  intros v t rest locals obj. rewrite item_expected. unfold final_varname.
  destruct (expected v t) eqn:E.
  - left. now apply expected_some.
  - destruct (last_bound locals obj) eqn:L; [|reflexivity].
    right. split; [reflexivity | apply last_bound_bound; assumption].
  - destruct t as [t|]; simpl in E; [destruct (sup_target v t)|]; discriminate.
Qed.
Print Assumptions C08_varname_rule.

(* what an accepted correspondence case establishes about the real observation *)
Theorem C08_case_ok_means_expected : forall v t code obs awb,
  tcase_ok (v, t, code, obs, awb) = true -> obs = expected v t /\ awb = obs.
Proof.
  intros v t code obs awb H. unfold tcase_ok, tcase_flags in H. simpl in H.
  repeat (apply andb_true_iff in H; destruct H as [? H]).
  split; apply dres_eqb_eq; assumption.
Qed.
Print Assumptions C08_case_ok_means_expected.

(* the fallback of the code (last local bound to the manager) satisfies the property-level
   acceptance test the correspondence applies to contexts of suspended frames (kind "fb") *)
Theorem C08_fallback_accepted : forall d locals obj, d <> DFuel ->
  fcase_ok (d, locals, obj, final_varname d locals obj) = true.
Proof.
  intros d locals obj Hd. unfold fcase_ok, final_varname. destruct d as [s| |]; [| |contradiction].
  - simpl. apply String.eqb_refl.
  - destruct (last_bound locals obj) eqn:E; [|reflexivity].
    apply last_bound_bound in E. apply existsb_exists. exists (s, obj). split; [assumption|].
    simpl. rewrite String.eqb_refl, Nat.eqb_refl. reflexivity.
Qed.
Print Assumptions C08_fallback_accepted.

(* Examples.  A supported target on which every rule of the decompiler is used:
   (a, *lo.x.f2(k, 2).q, [d['k'], lst[None:2]]) *)
Definition ex_target : target :=
  TStar [TName KFast "a"]
        (TAttr (EMCall (EAttr (EName KFast "lo") "x") "f2" [EName KGlobal "k"; EConst "2"]) "q")
        [TTuple [TSubscr (EName KDeref "d") (EConst "'k'"); TSlice (EName KFast "lst") (EConst "None") (EConst "2")]].
Example ex_supported_312 : sup_target V312 ex_target = true. Proof. reflexivity. Qed.
Example ex_render : render_target ex_target = "(a, *lo.x.f2(k, 2).q, (d['k'], lst[None:2]))". Proof. reflexivity. Qed.
Example ex_describe_312 :
  describe (compile_target V312 ex_target ++ [ILoad KGlobalNull "M"; ICall 0; IOther 0]) =
  DSome "(a, *lo.x.f2(k, 2).q, (d['k'], lst[None:2]))".
Proof. vm_compute. reflexivity. Qed.
(* the same target is unsupported on 3.11 (no STORE_SLICE): None, not a wrong string *)
Example ex_describe_311 : describe (compile_target V311 ex_target ++ [IPopTop]) = DNone.
Proof. vm_compute. reflexivity. Qed.
(* finding F11 (fixed in /repo): `with cm as f(1).attr` with a local callee starts with PUSH_NULL *)
Example ex_F11_fixed :
  compile_target V312 (TAttr (ECall (EName KFast "f") [EConst "1"]) "attr") =
    [INop NPushNull; ILoad KFast "f"; ILoadConst "1"; ICall 1; IStoreAttr "attr"] /\
  describe (compile_target V312 (TAttr (ECall (EName KFast "f") [EConst "1"]) "attr")) = DSome "f(1).attr".
Proof. split; reflexivity. Qed.
(* unsupported forms: d[n + 1], d[(w := 1)], f(kw=1).y *)
Example ex_unsupported :
  map (fun t => describe (compile_target V312 t ++ [IPopTop]))
      [TSubscr (EName KFast "d") (EOp 1 [EName KFast "n"; EConst "1"]);
       TSubscr (EName KFast "d") (EWalrus KFast "w" (EConst "1"));
       TAttr (ECallX 3 (EName KGlobal "f") [EConst "1"]) "y"] = [DNone; DNone; DNone].
Proof. reflexivity. Qed.
(* finding F16 (fixed in /repo): an attribute of a numeric constant is parenthesised and the Ellipsis
   constant is rendered as "..." : `as (1).x`, `as (-1).x`, `as d[...]` read back as themselves *)
Example ex_F16_fixed :
  map (fun t => describe (compile_target V312 t ++ [IPopTop]))
      [TAttr (EConst "1") "x"; TAttr (EConst "-1") "x"; TSubscr (EName KFast "d") (EConst "...");
       TAttr (EMCall (EConst "1.5") "hex" []) "y"; TAttr (EConst "'s'") "y"] =
  [DSome "(1).x"; DSome "(-1).x"; DSome "d[...]"; DSome "(1.5).hex().y"; DSome "'s'.y"] /\
  map render_target [TAttr (EConst "1") "x"; TAttr (EConst "-1") "x"; TSubscr (EName KFast "d") (EConst "...")] =
  ["(1).x"; "(-1).x"; "d[...]"].
Proof. split; reflexivity. Qed.
(* fallback: last local bound to the manager (object 7) *)
Example ex_fallback :
  final_varname DNone [("m", 7); ("x", 3); ("alias", 7)] 7 = Some "alias" /\
  final_varname (DSome "a") [("m", 7)] 7 = Some "a".
Proof. split; reflexivity. Qed.
