(* P_Frames_Fuel.v — fuel sufficiency for rank-ordered tables (property C10): on tables that are
   [ranked] below n the model never answers OutOfFuel once fuel >= fuel_bound n c root, so
   model = reference holds without the side condition.

   Entries are weighed by [qw], an item of rank r weighing wt (n - r).  The inner loop needs fuel
   above the weight [phi_u] of its queue: a round settles the head entry or puts in its place
   entries that together weigh less (W_obj), because ranks only go up.  The outer loop needs fuel
   above the weight of both queues: a round yields a frame, and what its hook queues weighs less
   than the frame did (W_frame; next_inner weighs nothing, it is in the queue already). *)
Require Import Base M_Frames M_FramesRef P_Frames_Step P_Frames_Ref.

Definition W (n : nat) (c : cfg) (i : item) : nat := wt (n - rank i) c i.
Definition qw (n : nat) (c : cfg) (q : qitem) : nat :=
  match q with QPy f | QFr f _ => W n c (IPy f) | QObj o => W n c (IObj o) | QNone => 1 end.
Definition qok (n : nat) (q : qitem) : Prop :=
  match q with QPy f | QFr f _ => f < n | QObj o => o < n | QNone => True end.
Definition phi_u n c (tu : list qent) : nat := sumn (map (fun e : qent => qw n c (snd (fst e))) tu).
Definition phi_t n c (te : list tent) : nat := sumn (map (fun e : tent => qw n c (fst e)) te).
Definition ok_u n (tu : list qent) : Prop := Forall (fun e : qent => qok n (snd (fst e))) tu.
Definition ok_t n (te : list tent) : Prop := Forall (fun e : tent => qok n (fst e)) te.

Lemma sumn_app a b : sumn (a ++ b) = sumn a + sumn b.
Proof. induction a; simpl; lia. Qed.

Lemma sumn_map_le {A} (f g : A -> nat) l :
  (forall x, In x l -> f x <= g x) -> sumn (map f l) <= sumn (map g l).
Proof.
  induction l as [|x l IH]; simpl; intros H; auto.
  pose proof (H x (or_introl eq_refl)). assert (sumn (map f l) <= sumn (map g l)) by (apply IH; auto). lia.
Qed.

Lemma sumn_removelast {A} (f : A -> nat) l : sumn (map f (removelast l)) <= sumn (map f l).
Proof.
  induction l as [|x l IH]; simpl; auto. destruct l as [|y l]; simpl in *; lia.
Qed.

Lemma wt_pos n c i : 1 <= wt n c i.
Proof. destruct n; simpl; lia. Qed.

Lemma wt_mono c : forall n m i, n <= m -> wt n c i <= wt m c i.
Proof.
  induction n as [|n IH]; intros m i L.
  - simpl. apply wt_pos.
  - destruct m as [|m]; [lia|]. simpl. apply le_n_S.
    destruct i as [f|o].
    + apply sumn_map_le. intros r _. destruct r; simpl; auto. apply IH; lia.
    + apply sumn_map_le. intros j _. apply IH; lia.
Qed.

Lemma in_last {A} (l : list A) r : In r l -> In r (removelast l) \/ last_opt l = Some r.
Proof.
  intros I. destruct (last_opt l) as [x|] eqn:E.
  - rewrite (last_opt_Some _ _ E) in I. apply in_app_or in I as [I|[<-|[]]]; auto.
  - rewrite (last_opt_None _ E) in I. destruct I.
Qed.

Section Ranked.
Variables (n : nat) (c : cfg) (root : item).
Hypothesis R : ranked n c root = true.

Lemma ranked_root : rank root < n.
Proof.
  unfold ranked in R. apply andb_true_iff in R as [R1 _]. apply andb_true_iff in R1 as [R1 _].
  apply Nat.ltb_lt. exact R1.
Qed.

Lemma ranked_unwrap o i : o < n -> In i (uitems (unwrap c o)) -> o < rank i < n.
Proof.
  intros L I. unfold ranked in R. apply andb_true_iff in R as [R1 _]. apply andb_true_iff in R1 as [_ R2].
  rewrite forallb_forall in R2. specialize (R2 o). rewrite in_seq in R2.
  assert (H : forallb (item_between o n) (uitems (unwrap c o)) = true) by (apply R2; lia).
  rewrite forallb_forall in H. specialize (H i I). unfold item_between in H.
  apply andb_true_iff in H as [A B]. apply Nat.ltb_lt in A. apply Nat.ltb_lt in B. lia.
Qed.

Lemma ranked_elab f : f < n ->
  (forall r, In r (removelast (eitems (elab c f))) -> ritem_between f n r = true) /\
  (forall r, last_opt (eitems (elab c f)) = Some r -> r = RNext \/ ritem_between f n r = true).
Proof.
  intros L. unfold ranked in R. apply andb_true_iff in R as [_ R3]. rewrite forallb_forall in R3.
  specialize (R3 f). rewrite in_seq in R3. apply andb_true_iff in R3 as [RE1 RE2]; [|lia].
  rewrite forallb_forall in RE1. split; [exact RE1|].
  intros r LA. rewrite LA in RE2. destruct r; auto.
Qed.

Lemma W_obj o : o < n -> S (sumn (map (W n c) (uitems (unwrap c o)))) <= W n c (IObj o).
Proof.
  intros L. unfold W at 2. simpl rank. destruct (n - o) as [|k] eqn:E; [lia|]. simpl.
  apply le_n_S. apply sumn_map_le. intros i I. unfold W.
  destruct (ranked_unwrap o i L I). apply wt_mono. lia.
Qed.

Lemma W_frame f : f < n -> S (sumn (map (rweight (W n c)) (eitems (elab c f)))) <= W n c (IPy f).
Proof.
  intros L. destruct (ranked_elab f L) as [RE1 RE2].
  unfold W at 2. simpl rank. destruct (n - f) as [|k] eqn:E; [lia|]. simpl.
  apply le_n_S, sumn_map_le. intros r I.
  assert (B : r = RNext \/ ritem_between f n r = true) by (destruct (in_last _ _ I); auto).
  destruct B as [->|B]; [reflexivity|]. destruct r as [i| |]; simpl in *; auto.
  apply andb_true_iff in B as [A B]. apply Nat.ltb_lt in A. apply Nat.ltb_lt in B.
  unfold W. apply wt_mono. lia.
Qed.

Lemma qw_pos q : 1 <= qw n c q.
Proof. destruct q; simpl; unfold W; auto using wt_pos. Qed.

Lemma phi_u_app a b : phi_u n c (a ++ b) = phi_u n c a + phi_u n c b.
Proof. unfold phi_u. rewrite map_app, sumn_app. reflexivity. Qed.

Lemma pushed_fuel org d q : qok n q ->
  let new := pushed c org d (uitems (hook c (er q))) in
  ok_u n new /\ S (phi_u n c new) <= qw n c q.
Proof.
  destruct q as [f|f fo|o|]; cbn [er hook uitems pushed map]; intros L;
    try (split; [constructor | apply qw_pos]).
  split.
  - unfold ok_u, pushed. rewrite Forall_map. apply Forall_forall. intros i I.
    destruct (ranked_unwrap o i L I). destruct i; simpl in *; lia.
  - etransitivity; [|apply (W_obj o L)]. apply le_n_S, Nat.eq_le_incl.
    unfold phi_u, pushed. rewrite map_map. f_equal. apply map_ext. intros [f|o']; reflexivity.
Qed.

Lemma flatten_fuel (P : plain c) : forall fuel cnt tu te errs t,
  ok_u n tu -> phi_u n c tu + 1 <= fuel ->
  match flatten fuel cnt c tu te errs t with
  | FlFuel => False
  | FlRaised _ => False
  | FlOk te' _ _ => exists flat, te' = rev te ++ flat /\ ok_t n flat /\ phi_t n c flat <= phi_u n c tu
  end.
Proof.
  destruct P as (NF & _ & GU & GI & _).
  induction fuel as [|fuel IH]; intros cnt tu te errs t OK LE; [lia|].
  destruct tu as [|[[org q] d] tu].
  { exists []. rewrite app_nil_r. repeat split; auto. constructor. }
  inversion OK as [|x xs OKq OK']; subst. cbn [fst snd] in OKq.
  change (qw n c q + phi_u n c tu + 1 <= S fuel) in LE.
  change (phi_u n c ((org, q, d) :: tu)) with (qw n c q + phi_u n c tu).
  destruct (flatten_step c cnt q t NF GU (fun _ _ _ => GI)) as [t' ->].
  pose proof (unw_step_push c cnt (er q)) as UP.
  destruct (unw_step c cnt (er q)) as [es0|l es0].
  - pose proof (qw_pos q).
    assert (LE' : phi_u n c tu + 1 <= fuel) by lia.
    specialize (IH 0 tu ((settled c org q, d) :: te) (rev es0 ++ errs) t' OK' LE').
    destruct (flatten fuel 0 c tu _ _ t'); auto.
    destruct IH as (flat & -> & OF & PF).
    exists ((settled c org q, d) :: flat). cbn [rev]. rewrite <- app_assoc. repeat split; auto.
    + constructor; auto. destruct q; exact OKq.
    + change (qw n c (settled c org q) + phi_t n c flat <= qw n c q + phi_u n c tu).
      replace (qw n c (settled c org q)) with (qw n c q) by (destruct q; reflexivity). lia.
  - rewrite (UP l es0 eq_refl). destruct (pushed_fuel org (S d) q OKq) as [ON PN].
    assert (OK2 : ok_u n (pushed c org (S d) (uitems (hook c (er q))) ++ tu)) by (apply Forall_app; auto).
    specialize (IH (S cnt) _ te (rev es0 ++ errs) t' OK2). rewrite phi_u_app in IH.
    destruct (flatten fuel (S cnt) c _ te _ t'); try (apply IH; lia).
    destruct IH as (flat & -> & OF & PF); [lia|]. exists flat. repeat split; auto. lia.
Qed.

Lemma phi_requeue rest : phi_u n c (requeue rest) = phi_t n c rest.
Proof. unfold phi_u, phi_t, requeue. rewrite map_map. reflexivity. Qed.
Lemma ok_requeue rest : ok_t n rest -> ok_u n (requeue rest).
Proof. unfold ok_u, ok_t, requeue. rewrite Forall_map. auto. Qed.
Lemma phi_dropge d : forall q, phi_u n c (dropge d q) <= phi_u n c q.
Proof.
  induction q as [|[[o i] d'] q IH]; simpl; auto. destruct (d <=? d'); auto.
  unfold phi_u in *. simpl. lia.
Qed.
Lemma ok_dropge d : forall q, ok_u n q -> ok_u n (dropge d q).
Proof.
  induction q as [|[[o i] d'] q IH]; simpl; auto. intros H. destruct (d <=? d'); auto.
  inversion H; auto.
Qed.
Lemma phi_redepth d q : phi_u n c (redepth d q) = phi_u n c q.
Proof. destruct q as [|[[o i] d'] q]; reflexivity. Qed.
Lemma ok_redepth d q : ok_u n q -> ok_u n (redepth d q).
Proof. destruct q as [|[[o i] d'] q]; simpl; auto. intros H; inversion H; subst. constructor; auto. Qed.

Lemma pushed_between f next d : forall l',
  (forall r, In r l' -> ritem_between f n r = true) ->
  ok_u n (map (fun q => (better_origin c q None, q, d)) (map (conc next) l')) /\
  phi_u n c (map (fun q => (better_origin c q None, q, d)) (map (conc next) l'))
  = sumn (map (rweight (W n c)) l').
Proof.
  induction l' as [|r l' IH]; intros H.
  - split; [constructor|reflexivity].
  - destruct IH as [IH1 IH2]; [intros x I; apply H; right; exact I|].
    pose proof (H r (or_introl eq_refl)) as B.
    destruct r as [i| |]; simpl in B; try discriminate.
    + unfold item_between in B. apply andb_true_iff in B as [_ B]. apply Nat.ltb_lt in B.
      split.
      * constructor; auto. destruct i; simpl in *; auto.
      * unfold phi_u in *. simpl. rewrite IH2. destruct i; reflexivity.
    + split.
      * constructor; simpl; auto.
      * unfold phi_u in *. simpl. rewrite IH2. reflexivity.
Qed.

Lemma requeued_seq_fuel f d rest : f < n -> ok_t n rest ->
  let (tu, te) := requeued c (ESeq (eitems (elab c f))) d rest in
  ok_u n tu /\ ok_t n te /\ S (phi_u n c tu + phi_t n c te) <= W n c (IPy f) + phi_t n c rest.
Proof.
  intros L OR. pose proof (W_frame f L) as WF. destruct (ranked_elab f L) as [RE1 RE2].
  unfold requeued. set (l := eitems (elab c f)) in *. change (phi_t n c []) with 0.
  destruct (ends_with_next (next_of rest) l) eqn:EN.
  - destruct (pushed_between f (next_of rest) d (removelast l) RE1) as [O1 P1].
    split; [apply Forall_app; split; auto; apply ok_redepth, ok_requeue, OR|]. split; [constructor|].
    rewrite phi_u_app, phi_redepth, phi_requeue, P1.
    pose proof (sumn_removelast (rweight (W n c)) l). lia.
  - destruct (pushed_between f (next_of rest) d l) as [O1 P1].
    { (* the last element is not next_inner *)
      intros r I. destruct (in_last _ _ I) as [I'|LA]; auto.
      destruct (RE2 r LA) as [->|B]; auto.
      unfold ends_with_next in EN. rewrite LA in EN. discriminate. }
    split; [apply Forall_app; split; auto; apply ok_dropge, ok_requeue, OR|]. split; [constructor|].
    pose proof (phi_dropge d (requeue rest)) as PD.
    rewrite phi_u_app, P1. rewrite phi_requeue in PD. lia.
Qed.

Lemma requeued_fuel f d rest : f < n -> ok_t n rest ->
  let (tu, te) := requeued c (elab c f) d rest in
  ok_u n tu /\ ok_t n te /\ S (phi_u n c tu + phi_t n c te) <= W n c (IPy f) + phi_t n c rest.
Proof.
  intros L OR. rewrite requeued_keeps. destruct (keeps _ _); [|apply requeued_seq_fuel; assumption].
  repeat split; auto; [constructor|]. pose proof (qw_pos (QPy f)). simpl in *. lia.
Qed.

Lemma run_fuel (P : plain c) : forall fuel tu te errs out t,
  ok_u n tu -> ok_t n te -> phi_u n c tu + phi_t n c te + 1 <= fuel ->
  fst (run fuel false c tu te errs out t) <> OutOfFuel.
Proof.
  induction fuel as [|fuel IH]; intros tu te errs out t OU OT LE; [lia|].
  rewrite (run_S_plain c fuel tu te errs out t P).
  pose proof (flatten_fuel P (S fuel) 0 tu (rev te) errs t OU) as FF.
  destruct (flatten (S fuel) 0 c tu (rev te) errs t) as [te1 errs1 t1| |];
    try (exfalso; apply FF; lia).
  destruct FF as (flat & E1 & OF & PF); [lia|]. rewrite rev_involutive in E1.
  assert (O1 : ok_t n te1) by (subst te1; apply Forall_app; auto).
  assert (P1 : phi_t n c te1 <= phi_u n c tu + phi_t n c te)
    by (subst te1; unfold phi_t in *; rewrite map_app, sumn_app; lia).
  destruct te1 as [|[[f|f org|o|] d] rest]; try discriminate.
  inversion O1 as [|x xs Of OR]; subst.
  change (W n c (IPy f) + phi_t n c rest <= phi_u n c tu + phi_t n c te) in P1.
  pose proof (requeued_fuel f d rest Of OR) as FS.
  destruct (requeued c (elab c f) d rest) as [tu' te']. destruct FS as (O2 & O3 & P2).
  cbn [fst snd]. apply IH; auto. lia.
Qed.

Lemma run_total (P : plain c) fuel t :
  fuel_bound n c root <= fuel -> fst (run fuel false c (root_q c root) [] [] [] t) <> OutOfFuel.
Proof.
  intros LE. apply run_fuel; auto.
  - unfold root_q. constructor; [|constructor]. simpl. pose proof ranked_root. destruct root; simpl in *; auto.
  - constructor.
  - unfold fuel_bound in LE. unfold phi_u, phi_t, root_q. simpl.
    assert (qw n c (q_of root) <= wt n c root).
    { destruct root; simpl; unfold W; apply wt_mono; lia. }
    lia.
Qed.

Lemma model_eq_ref_total_run (P : plain c) fuel :
  fuel_bound n c root <= fuel ->
  exists s, fst (run fuel false c (root_q c root) [] [] [] 0) = Ok s /\ Ref c [(s_of root, 0)] (view s).
Proof.
  intros LE. apply run_root_ref_fst; auto. apply run_total; auto.
Qed.

End Ranked.

(* Example: insert inside insert, then a prune by the re-depthed next_inner, a None element, a
   raising iterator: ranked below 6, bound 8 (far below the default fuel) *)
Definition ex_rk : cfg :=
  mkcfg [(0, USeq [Some (IPy 1); None; Some (IObj 1)]); (1, UIter [IPy 3; IPy 4] true)]
        [(1, (ESeq [RItem (IPy 2); RNext], true)); (2, (ESeq [RItem (IPy 5); RNext], false));
         (3, (ESeq [], false))]
        [] [] [] [] false all_guards 100.
Example ex_ranked : ranked 6 ex_rk (IObj 0) = true /\ fuel_bound 6 ex_rk (IObj 0) = 8.
Proof. split; vm_compute; reflexivity. Qed.
Example ex_ranked_bound : plain ex_rk /\ fuel_bound 6 ex_rk (IObj 0) <= default_fuel.
Proof. split; [apply mkcfg_plain|]. apply Nat.leb_le. vm_compute. reflexivity. Qed.
Example ex_ranked_extract :
  extract ex_rk (IObj 0) =
  Ok (Stack [FOut 1 true None []; FOut 2 false None []; FOut 5 true None []; FOut 3 false None []]
            LNone [EIter 1]).
Proof. vm_compute. reflexivity. Qed.
(* a table that is NOT ranked: the self-loop of the guard chain *)
Example ex_not_ranked :
  ranked 3 (mkcfg [(0, UOne (IObj 0))] [] [] [] [] [] false all_guards 100) (IObj 0) = false.
Proof. reflexivity. Qed.
