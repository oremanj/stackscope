Require Import Base M_Format M_Summary P_Format P_Summary.
From Coq Require Import NArith String.

(* show_contexts=False: one FrameSummary per non-hidden frame (all frames with
   show_hidden_frames), in order, carrying that frame's filename, lineno and function name *)
Theorem C19_no_contexts : forall sh cl s,
  summary false sh cl s = map (frame_entry cl) (filter (fun f => visb sh (f_hide f)) (s_frames s)).
Proof.
  intros sh cl [r fs lf er]. unfold summary. simpl. rewrite flat_map_hide. apply flat_map_single.
Qed.
Print Assumptions C19_no_contexts.

(* show_contexts=True: per visible frame, for each visible context an entry at the with-line,
   then its inner stack (recursively, with contexts), then its child contexts (child task stacks
   contribute nothing); the frame's own entry is omitted iff its last context is exiting *)
Theorem C19_with_contexts : forall sh cl,
  (forall s, summary true sh cl s
             = flat_map (sum_frame sh cl) (filter (fun f => visb sh (f_hide f)) (s_frames s)))
  /\ (forall f, sum_frame sh cl f
                = flat_map (sum_ctx f sh cl None) (filter (fun c => visb sh (c_hide c)) (f_ctxs f))
                  ++ (if last_exiting (f_ctxs f) then [] else [frame_entry cl f]))
  /\ (forall p ov c, sum_ctx p sh cl ov c
                = if visb sh (c_hide c)
                  then ctx_entry p cl ov c
                       :: (match c_inner c with Some s => summary true sh cl s | None => [] end)
                       ++ flat_map (fun c' => sum_ctx p sh cl (Some (child_override c')) c') (child_contexts (c_kids c))
                  else []).
Proof. exact with_contexts. Qed.
Print Assumptions C19_with_contexts.

(* Whole-tree projection.  [headers_stack] lists the frame/context headers in SUMMARY order,
   [pre_stack] in FORMAT order (both skip child task stacks); [prune_stack] deletes child task
   stacks.  For every tree, with show_contexts:
   (1) the summary is, entry by entry, the FrameSummary of each header in summary order;
   (2) the format order is, top to bottom, the header lines of the text that Stack.format
       prints for the tree without its child task stacks (the skeleton read back from that text
       by C18's read_back, flattened);
   (3) removing the child task stacks does not change the summary;
   (4) summary order is a permutation of the format order minus the own headers of frames whose
       last context is exiting; C19_projection_orders says which permutation: per frame,
       contexts' headers ++ [frame header]  versus  [frame header] ++ contexts' headers,
       identical recursion everywhere else. *)
Theorem C19_projection : forall o cl t,
  show_ctx o = true ->
  let sh := show_hidden o in
  summary true sh cl t = map (entry_of cl) (headers_stack sh t)
  /\ (exists hdr sk, read_back (fmt_stack_sl o (prune_stack t)) = Some (hdr, sk)
                     /\ sk_pre_stack sk = map hdr_line (pre_stack sh t))
  /\ summary true sh cl (prune_stack t) = summary true sh cl t
  /\ Permutation.Permutation (headers_stack sh t) (filter kept (pre_stack sh t)).
Proof. exact projection. Qed.
Print Assumptions C19_projection.

(* the two orders side by side: they differ only in where a frame's own header stands (after
   resp. before the headers of its contexts) and in that the summary drops it when the last
   context is exiting *)
Theorem C19_projection_orders : forall sh,
  (forall f, pre_frame sh f = HFrame f :: flat_map (pre_ctx sh f None) (f_ctxs f)
             /\ headers_frame sh f = flat_map (headers_ctx sh f None) (f_ctxs f)
                                     ++ (if last_exiting (f_ctxs f) then [] else [HFrame f]))
  /\ (forall p ov c,
        pre_ctx sh p ov c
        = (if visb sh (c_hide c)
           then HCtx p ov c :: (match c_inner c with Some s => pre_stack sh s | None => [] end)
                ++ flat_map (fun c' => pre_ctx sh p (Some (child_override c')) c') (child_contexts (c_kids c))
           else [])
        /\ headers_ctx sh p ov c
        = (if visb sh (c_hide c)
           then HCtx p ov c :: (match c_inner c with Some s => headers_stack sh s | None => [] end)
                ++ flat_map (fun c' => headers_ctx sh p (Some (child_override c')) c') (child_contexts (c_kids c))
           else [])).
Proof.
  intros sh. split.
  - intros [fn cls md file ln src loc h hl cs]. split; reflexivity.
  - intros p ov [ty asy ex vn sl ds csrc cr orp inn ks hh]. simpl. rewrite !flat_map_child_contexts.
    split; reflexivity.
Qed.
Print Assumptions C19_projection_orders.

(* level-wise form: summary and read-back skeleton are indexed by the same visible lists *)
Theorem C19_projection_levels : forall o cl,
  show_ctx o = true ->
  (forall r fs lf er,
      let V := filter (fun f => visb (show_hidden o) (f_hide f)) fs in
      summary true (show_hidden o) cl (Stk r fs lf er) = flat_map (sum_frame (show_hidden o) cl) V
      /\ (let 'SkStack sf _ _ := sk_body o (Stk r fs lf er) in sf) = map (sk_of_frame o) V)
  /\ (forall f,
      let V := filter (fun c => visb (show_hidden o) (c_hide c)) (f_ctxs f) in
      sum_frame (show_hidden o) cl f
      = flat_map (sum_ctx f (show_hidden o) cl None) V ++ (if last_exiting (f_ctxs f) then [] else [frame_entry cl f])
      /\ (let 'SkFrame _ cx _ := sk_of_frame o f in cx) = map (sk_of_ctx o true true) V).
Proof.
  intros o cl Hc. destruct (with_contexts (show_hidden o) cl) as [H1 [H2 _]]. split.
  - intros r fs lf er V. split; [apply (H1 (Stk r fs lf er))|]. rewrite sk_body_eq. reflexivity.
  - intros f V. split; [apply H2|]. rewrite sk_of_frame_eq. unfold vctxs. rewrite Hc. reflexivity.
Qed.
Print Assumptions C19_projection_levels.

(* format_flat = header ++ rendering of the summary (hidden frames dropped, no locals) ++ leaf
   ++ error, for ANY rendering function (traceback.StackSummary.format is not modelled) *)
Theorem C19_flat : forall (render : list entry -> list text) sc s,
  format_flat render sc s
  = header_text (s_root s)
    :: (if nonempty (s_frames s) then render (summary sc false false s) else [])
    ++ flat_leaf (s_leaf s) ++ flat_err (s_err s).
Proof. reflexivity. Qed.
Print Assumptions C19_flat.

Definition ex_f (h : bool) (cs : list context) : frame :=
  Frm (a "f") None (Some (a "m")) (a "x.py") 3%N (a "return 1") [] h false cs.
Definition ex_c (h ex : bool) (inn : option stack) (ks : list child) : context :=
  Ctx (Some (a "T")) false ex (Some (a "v")) (Some 2%N) (Some (a "d")) (a "with t() as v:") [] [] inn ks h.
Definition ex_s : stack :=
  Stk None [ex_f true []; ex_f false [ex_c false false (Some (Stk None [ex_f false []] None None))
                                            [KCtx (ex_c true false None []); KStk (Stk None [ex_f false []] None None)];
                                      ex_c false true None []]] None None.
Example C19_projection_example :
  let o := {| M_Format.ascii := false; show_ctx := true; show_hidden := true |} in
  List.length (headers_stack true ex_s) = 5 /\ List.length (pre_stack true ex_s) = 6
  /\ List.length (filter kept (pre_stack true ex_s)) = 5
  /\ map hdr_line (pre_stack true ex_s) <> map hdr_line (headers_stack true ex_s).
Proof. vm_compute. repeat split. discriminate. Qed.

Example C19_example :
  List.length (summary false false false ex_s) = 1 /\ List.length (summary false true false ex_s) = 2
  /\ List.length (summary true false false ex_s) = 3 /\ List.length (summary true true false ex_s) = 5.
Proof. vm_compute. repeat split. Qed.
