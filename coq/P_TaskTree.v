(* P_TaskTree.v — lemmas about the Trio model M_TaskTree.v (property C14).
   The model walks a queue with unwrap depths and pending PRUNE thresholds; the specifications
   know neither.  Frames across thread hops: [splice] says which frames follow which; on
   well-typed ping-pong worlds outside finding F14 the walk produces exactly them
   ([walkL_splice], by induction on the world with the hop of a frame as extra hypothesis:
   [frames_hop_ind]), also when the one lookahead the model approximates is arbitrary ([walkL]).
   The tree: [iso] compares an extracted stack with Trio's own tables; it holds for hop-free
   tasks and, with the nurseries of the tasks a stack continues into, across hops
   ([iso_hops_all], by [world_ind]); without recursion every child is a stub ([stubs_walk]).
   The boolean [iso_b] the case files evaluate is sound for [iso]; the unwrap guard is never
   reached by a chain that yields a frame at every link ([guard_progress]). *)
Require Import Base M_TaskTree.

Scheme task_mut := Induction for task Sort Prop
  with frames_mut := Induction for frames Sort Prop
  with frame_mut := Induction for frame Sort Prop
  with fkind_mut := Induction for fkind Sort Prop
  with ctxs_mut := Induction for ctxs Sort Prop
  with ctx_mut := Induction for ctx Sort Prop
  with tasks_mut := Induction for tasks Sort Prop.
Combined Scheme world_mutind from task_mut, frames_mut, frame_mut, fkind_mut, ctxs_mut, ctx_mut, tasks_mut.

(* Induction over the world with the layers of single frames, kinds and contexts folded into the
   cases for lists: a frame brings the hypothesis for what hangs off its thread hop (the frames
   of the worker thread of a to_thread.run_sync, the task serving a from_thread.run). *)
Lemma world_ind (Pt : task -> Prop) (Pf : frames -> Prop) (Pc : ctxs -> Prop) (Ps : tasks -> Prop) :
  (forall r fs, Pf fs -> Pt (Task r fs)) ->
  Pf FNil ->
  (forall id k cs r,
     match k with KToThread tfs => Pf tfs | KFromSys _ t => Pt t | _ => True end ->
     Pc cs -> Pf r -> Pf (FCons (Frame id k cs) r)) ->
  Pc CNil ->
  (forall n kids r, Ps kids -> Pc r -> Pc (CCons (CNurs n kids) r)) ->
  (forall c r, Pc r -> Pc (CCons (COther c) r)) ->
  Ps TNil ->
  (forall t r, Pt t -> Ps r -> Ps (TCons t r)) ->
  (forall t, Pt t) /\ (forall fs, Pf fs) /\ (forall cs, Pc cs) /\ (forall ts, Ps ts).
Proof.
  intros HT HF0 HF HC0 HCN HCO HS0 HS.
  destruct (world_mutind Pt Pf
    (fun f => forall r, Pf r -> Pf (FCons f r))
    (fun k => forall id cs r, Pc cs -> Pf r -> Pf (FCons (Frame id k cs) r))
    Pc (fun c => forall r, Pc r -> Pc (CCons c r)) Ps) as (A & B & _ & _ & C & _ & D); auto.
Qed.

Definition hop_kind (Q : frames -> Prop) (k : fkind) : Prop :=
  match k with KToThread tfs => Q tfs | KFromSys _ t => Q (task_frames t) | _ => True end.

Lemma frames_hop_ind (Q : frames -> Prop) :
  Q FNil ->
  (forall id k cs r, hop_kind Q k -> Q r -> Q (FCons (Frame id k cs) r)) ->
  forall fs, Q fs.
Proof.
  intros H0 HS.
  apply (world_ind (fun t => Q (task_frames t)) Q (fun _ => True) (fun _ => True)); auto.
Qed.

Definition fout_id (f : fout) : nat := match f with FOut i _ _ => i end.
Definition fout_cx (f : fout) : list cout := match f with FOut _ _ c => c end.
Definition ids (l : list fout) : list nat := map fout_id l.

Lemma next_depth_ge inc n : n <= next_depth inc n.
Proof. destruct inc; simpl; lia. Qed.

(* [next_is_wtr] lets a to_thread.run_sync frame that is the LAST entry of its segment see
   next_inner = None, although in extract_iter the head of an enclosing segment could follow.
   [walkL lk] is the model with that lookahead made explicit and ARBITRARY: [lk id] is whatever
   "next_inner is wait_task_rescheduled" evaluates to for the to_thread frame [id] at the end of
   a segment.  [walk] is [walkL (fun _ => false)]; the facts about walks are proved for every
   [lk], so that on ping-pong worlds the approximation cannot be observed (thread segments
   contain no to_thread frame; a task segment's pending prune is ignored by whatever encloses
   it). *)
Definition next_is_wtrL (lk : nat -> bool) (id : nat) (rest : frames) : bool :=
  match rest with FNil => lk id | _ => next_is_wtr rest end.

Fixpoint walkL (lk : nat -> bool) (rc inc : bool) (n d : nat) (pr : option nat) (fs : frames) {struct fs}
  : list fout * option nat :=
  match fs with
  | FNil => ([], pr)
  | FCons f rest =>
    let n' := next_depth inc n in
    if pruned pr d then walkL lk rc inc n' n' pr rest else
    match f with
    | Frame id k cs =>
      let cx := ext_ctxs rc cs in
      let cons1 (x : fout) (r : list fout * option nat) := (x :: fst r, snd r) in
      match k with
      | KPlain => cons1 (FOut id false cx) (walkL lk rc inc n' n' None rest)
      | KHidden => cons1 (FOut id true cx) (walkL lk rc inc n' n' None rest)
      | KTrap _ => cons1 (FOut id true cx) (walkL lk rc inc n' n' (Some d) rest)
      | KToThreadNF => cons1 (FOut id false cx) (walkL lk rc inc n' n' None rest)
      | KToThread tfs =>
          let r1 := walkL lk rc false (S d) (S d) None tfs in
          let r2 := if next_is_wtrL lk id rest
                    then walkL lk rc inc n' n' (Some d) rest
                    else walkL lk rc inc n' (Nat.min d n') (snd r1) rest
          in (FOut id true cx :: fst r1 ++ fst r2, snd r2)
      | KFromHost => cons1 (FOut id true cx) (walkL lk rc inc n' n' (Some d) rest)
      | KFromSys run t =>
          if reentered (task_frames t)
          then cons1 (FOut id false cx) (walkL lk rc inc n' n' None rest)
          else
          let r1 := walkL lk rc (negb run) (S d) (S d) None (task_frames t) in
          let r2 := walkL lk rc inc n' n' (Some d) rest in
          (FOut id true cx :: fst r1 ++ fst r2, snd r2)
      end
    end
  end.

Lemma walk_walkL fs : forall rc inc n d pr,
  walk rc inc n d pr fs = walkL (fun _ => false) rc inc n d pr fs.
Proof.
  induction fs as [|id k cs r Hk IH] using frames_hop_ind; intros; [reflexivity|].
  simpl. destruct k; simpl in Hk; rewrite ?Hk, ?IH; try reflexivity.
  destruct r; reflexivity.
Qed.

(* a pending PRUNE whose threshold is not above the head swallows the whole remainder of a
   segment, whatever is in it *)
Lemma walkL_pruned lk rc inc fs : forall n d p, p <= d -> d <= n ->
  walkL lk rc inc n d (Some p) fs = ([], Some p).
Proof.
  induction fs as [|f r IH]; intros n d p Hp Hd; simpl; [reflexivity|].
  assert (E : (p <=? d) = true) by (apply Nat.leb_le; lia).
  rewrite E. apply IH; pose proof (next_depth_ge inc n); lia.
Qed.

Lemma walkL_unpruned_fst lk rc inc fs : forall n d p, d < p ->
  fst (walkL lk rc inc n d (Some p) fs) = fst (walkL lk rc inc n d None fs).
Proof.
  destruct fs as [|f r]; intros n d p H; simpl; [reflexivity|].
  assert (E : (p <=? d) = false) by (apply Nat.leb_gt; lia).
  rewrite E. reflexivity.
Qed.

Lemma walk_pruned rc inc fs n d p : p <= d -> d <= n ->
  walk rc inc n d (Some p) fs = ([], Some p).
Proof. rewrite walk_walkL. apply walkL_pruned. Qed.

Lemma walk_unpruned_fst rc inc fs n d p : d < p ->
  fst (walk rc inc n d (Some p) fs) = fst (walk rc inc n d None fs).
Proof. rewrite !walk_walkL. apply walkL_unpruned_fst. Qed.

(* Specification of the frames across thread hops, written from the property text (no depths,
   no prune thresholds): the worker thread's frames take the place of the wait, or, when the
   thread has re-entered the host task, precede the frames of the call being served; a thread
   inside from_thread.run continues into the task serving it; a trap ends the stack. *)
Fixpoint splice_task (fs : frames) : list nat :=
  match fs with
  | FNil => []
  | FCons (Frame id k _) r =>
    id :: match k with
          | KTrap _ => []
          | KToThread tfs =>
              if next_is_wtr r then splice_thread tfs else splice_thread tfs ++ splice_task r
          | _ => splice_task r
          end
  end
with splice_thread (fs : frames) : list nat :=
  match fs with
  | FNil => []
  | FCons (Frame id k _) r =>
    id :: match k with
          | KFromHost => []
          | KFromSys _ t => splice_task (task_frames t)
          | _ => splice_thread r
          end
  end.

Definition splice (r : rootd) : list nat :=
  match r with RTask _ t => splice_task (task_frames t) | RThread _ fs => splice_thread fs end.

(* ping-pong worlds: task segments (coroutine chains) hold plain/hidden/trap/to_thread frames,
   thread segments hold plain/hidden frames and at most one relevant from_thread.run; a worker
   thread whose host is serving it ([ins]: the to_thread frame is not followed by the wait)
   sits in a token-less from_thread.run or is still running. *)
Fixpoint pp_task (fs : frames) : bool :=
  match fs with
  | FNil => true
  | FCons (Frame _ k _) r =>
    match k with
    | KPlain | KHidden | KToThreadNF => pp_task r
    | KTrap _ => true
    | KToThread tfs => if next_is_wtr r then pp_thread false tfs else pp_thread true tfs && pp_task r
    | KFromHost | KFromSys _ _ => false
    end
  end
with pp_thread (ins : bool) (fs : frames) : bool :=
  match fs with
  | FNil => true
  | FCons (Frame _ k _) r =>
    match k with
    | KPlain | KHidden => pp_thread ins r
    | KFromHost => true
    | KFromSys _ t => negb ins && pp_task (task_frames t)
    | _ => false
    end
  end.

(* the shape of finding F14, excluded: no from_thread.run(trio_token=...) is served by a task
   that is at the same time serving a re-entrant from_thread.run *)
Fixpoint f14_free (fs : frames) : bool :=
  match fs with
  | FNil => true
  | FCons (Frame _ k _) r =>
    (match k with
     | KToThread tfs => f14_free tfs
     | KFromSys _ t => negb (reentered (task_frames t)) && f14_free (task_frames t)
     | _ => true
     end) && f14_free r
  end.

(* [splice] returning the frames themselves, and what extract() makes of each of them *)
Definition frame_id (f : frame) : nat := match f with Frame id _ _ => id end.
Definition frame_ctxs (f : frame) : ctxs := match f with Frame _ _ cs => cs end.
Definition hideK (k : fkind) : bool := match k with KPlain | KToThreadNF => false | _ => true end.
Definition outK (rc : bool) (f : frame) : fout :=
  match f with Frame id k cs => FOut id (hideK k) (ext_ctxs rc cs) end.

Fixpoint sp_task (fs : frames) : list frame :=
  match fs with
  | FNil => []
  | FCons f r =>
    f :: match f with Frame _ k _ =>
           match k with
           | KTrap _ => []
           | KToThread tfs => if next_is_wtr r then sp_thread tfs else sp_thread tfs ++ sp_task r
           | _ => sp_task r
           end
         end
  end
with sp_thread (fs : frames) : list frame :=
  match fs with
  | FNil => []
  | FCons f r =>
    f :: match f with Frame _ k _ =>
           match k with
           | KFromHost => []
           | KFromSys _ t => sp_task (task_frames t)
           | _ => sp_thread r
           end
         end
  end.

Lemma sp_ids fs :
  map frame_id (sp_task fs) = splice_task fs /\ map frame_id (sp_thread fs) = splice_thread fs.
Proof.
  induction fs as [|id k cs r Hk [IHt IHh]] using frames_hop_ind; [split; reflexivity|].
  split.
  - cbn [sp_task splice_task map frame_id]. f_equal.
    destruct k; simpl in Hk; try exact IHt; try reflexivity.
    destruct Hk as [_ Hk]. destruct (next_is_wtr r); [exact Hk|]. rewrite map_app, Hk, IHt. reflexivity.
  - cbn [sp_thread splice_thread map frame_id]. f_equal.
    destruct k; simpl in Hk; try exact IHh; try reflexivity. apply Hk.
Qed.

Lemma sp_ids_all :
  (forall t : task, map frame_id (sp_task (task_frames t)) = splice_task (task_frames t)) /\
  (forall fs, map frame_id (sp_task fs) = splice_task fs /\ map frame_id (sp_thread fs) = splice_thread fs) /\
  (forall f : frame, match f with Frame _ k _ =>
     match k with
     | KToThread tfs => map frame_id (sp_thread tfs) = splice_thread tfs
     | KFromSys _ t => map frame_id (sp_task (task_frames t)) = splice_task (task_frames t)
     | _ => True end end) /\
  (forall k : fkind,
     match k with
     | KToThread tfs => map frame_id (sp_thread tfs) = splice_thread tfs
     | KFromSys _ t => map frame_id (sp_task (task_frames t)) = splice_task (task_frames t)
     | _ => True end) /\
  (forall cs : ctxs, True) /\ (forall c : ctx, True) /\ (forall ts : tasks, True).
Proof.
  split; [intros t; apply sp_ids|]. split; [exact sp_ids|].
  split; [intros [id [] cs] | split; [intros [] | repeat split]]; try exact I; apply sp_ids.
Qed.

Lemma ids_outK rc l : ids (map (outK rc) l) = map frame_id l.
Proof. unfold ids. rewrite map_map. apply map_ext. intros []. reflexivity. Qed.

(* The hop theorem, with full frames (ids, hide flags, contexts).  A thread segment is walked at
   one depth n; when its host is serving it, the prune it leaves pending is none or at n, which
   the remainder of the host's segment (effective depth < n) does not notice. *)
Lemma walkL_splice lk fs :
  (pp_task fs = true -> f14_free fs = true -> forall rc inc n d, d <= n ->
     fst (walkL lk rc inc n d None fs) = map (outK rc) (sp_task fs)) /\
  (forall ins, pp_thread ins fs = true -> f14_free fs = true -> forall rc n,
     fst (walkL lk rc false n n None fs) = map (outK rc) (sp_thread fs) /\
     (ins = true -> snd (walkL lk rc false n n None fs) = None \/
                    snd (walkL lk rc false n n None fs) = Some n)).
Proof.
  induction fs as [|id k cs r Hk [IHt IHh]] using frames_hop_ind.
  { split; [reflexivity|]. intros ins _ _ rc n. split; [reflexivity|]. intros _. left. reflexivity. }
  split.
  - intros Hpp Hf14 rc inc n d Hd.
    pose proof (next_depth_ge inc n) as Hn.
    simpl in Hpp, Hf14. simpl walkL.
    destruct k; simpl in Hpp, Hf14, Hk; try discriminate.
    1, 2, 4: simpl; f_equal; apply IHt; auto.   (* plain, hidden, unresolved to_thread *)
    + simpl. f_equal. rewrite walkL_pruned by lia. reflexivity.
    + apply andb_true_iff in Hf14 as [Hf1 Hf2]. destruct Hk as [_ Hk].
      cbn [sp_task map outK hideK fst snd]. f_equal.
      destruct r as [|g r'].
      * (* the to_thread frame ends its segment: whatever the lookahead says, nothing follows *)
        apply andb_true_iff in Hpp as [Hp1 _].
        rewrite (proj1 (Hk true Hp1 Hf1 rc (S d))). cbn [next_is_wtrL next_is_wtr sp_task].
        destruct (lk id); cbn [walkL fst]; rewrite !app_nil_r; reflexivity.
      * cbn [next_is_wtrL]. destruct (next_is_wtr (FCons g r')).
        -- rewrite (proj1 (Hk false Hpp Hf1 rc (S d))), walkL_pruned by lia. apply app_nil_r.
        -- apply andb_true_iff in Hpp as [Hp1 Hp2].
           destruct (Hk true Hp1 Hf1 rc (S d)) as [E S].
           rewrite map_app, E. f_equal.
           destruct (S eq_refl) as [-> | ->]; [|rewrite walkL_unpruned_fst by lia]; apply IHt; auto; lia.
  - intros ins Hpp Hf14 rc n.
    simpl in Hpp, Hf14. simpl walkL.
    destruct k; simpl in Hpp, Hf14, Hk; try discriminate.
    1, 2: destruct (IHh ins Hpp Hf14 rc n) as [E S]; simpl; split; [f_equal; exact E | exact S].
    + (* from_thread.run into the host *)
      simpl. rewrite walkL_pruned by lia. split; [reflexivity|]. intros _. right. reflexivity.
    + apply andb_true_iff in Hf14 as [Hf1 Hf2]. apply andb_true_iff in Hf1 as [Hre Hf1].
      apply andb_true_iff in Hpp as [Hins Hp].
      apply negb_true_iff in Hre. rewrite Hre.
      cbn [fst snd]. rewrite walkL_pruned by lia. split.
      * cbn [sp_thread map outK hideK fst]. f_equal. rewrite app_nil_r. apply Hk; auto.
      * intros ->. discriminate.
Qed.

Lemma walkL_task lk rc inc fs : pp_task fs = true -> f14_free fs = true ->
  fst (walkL lk rc inc base_depth base_depth None fs) = map (outK rc) (sp_task fs).
Proof. intros. apply walkL_splice; auto. Qed.

Lemma walkL_thread lk rc fs : pp_thread false fs = true -> f14_free fs = true ->
  fst (walkL lk rc false base_depth base_depth None fs) = map (outK rc) (sp_thread fs).
Proof. intros Hp Hf. apply (proj2 (walkL_splice lk fs) false Hp Hf). Qed.

Lemma frames_of_task rc inc fs : pp_task fs = true -> f14_free fs = true ->
  frames_of rc inc fs = map (outK rc) (sp_task fs).
Proof. intros. unfold frames_of. rewrite walk_walkL. apply walkL_task; assumption. Qed.

Lemma frames_of_thread rc fs : pp_thread false fs = true -> f14_free fs = true ->
  frames_of rc false fs = map (outK rc) (sp_thread fs).
Proof. intros. unfold frames_of. rewrite walk_walkL. apply walkL_thread; assumption. Qed.

Lemma ids_sp_task rc fs : ids (map (outK rc) (sp_task fs)) = splice_task fs.
Proof. rewrite ids_outK. apply sp_ids. Qed.

Lemma ids_sp_thread rc fs : ids (map (outK rc) (sp_thread fs)) = splice_thread fs.
Proof. rewrite ids_outK. apply sp_ids. Qed.

Lemma ext_child_frames r fs : ext_child true (Task r fs) = Stack (SRTask r) (frames_of true true fs).
Proof. reflexivity. Qed.

(* Ping-pong chains of any depth.  [l] lists the from_thread hops from the outside in: true = trio.from_thread.run(afn)
   re-entering the host task, false = trio.from_thread.run(afn, trio_token=...) served by a
   system task; every hop is preceded by a to_thread.run_sync hop.  Frame ids count up from b. *)
Definition P (i : nat) := Frame i KPlain CNil.

Fixpoint pingpong (l : list bool) (b : nat) : frames :=
  match l with
  | [] => fl [P b; Frame (b + 1) (KTrap true) CNil; P (b + 2)]          (* parked in Event.wait *)
  | true :: l' =>
      FCons (P b)
      (FCons (Frame (b + 1) (KToThread (fl [P (b + 2); Frame (b + 3) KFromHost CNil; P (b + 4)])) CNil)
      (FCons (Frame (b + 5) KHidden CNil)                                 (* Run.run *)
             (pingpong l' (b + 6))))
  | false :: l' =>
      fl [P b;
          Frame (b + 1) (KToThread (fl [P (b + 2);
                                        Frame (b + 3) (KFromSys false (Task (b + 5) (pingpong l' (b + 6)))) CNil;
                                        P (b + 4)])) CNil;
          Frame (b + 5) (KTrap true) CNil]
  end.

(* what the property text promises for it *)
Fixpoint pingpong_ids (l : list bool) (b : nat) : list nat :=
  match l with
  | [] => [b; b + 1]
  | true :: l' => [b; b + 1; b + 2; b + 3; b + 5] ++ pingpong_ids l' (b + 6)
  | false :: l' => [b; b + 1; b + 2; b + 3] ++ pingpong_ids l' (b + 6)
  end.

(* excluded: a token hop whose serving task goes on with a host re-entry (finding F14) *)
Fixpoint no_f14 (l : list bool) : bool :=
  match l with
  | false :: ((true :: _) as r) => false
  | _ :: r => no_f14 r
  | [] => true
  end.

Lemma pingpong_splice l : forall b, splice_task (pingpong l b) = pingpong_ids l b.
Proof.
  induction l as [|h l IH]; intros b; [reflexivity|]. destruct h.
  - cbn [pingpong splice_task splice_thread fl P next_is_wtr pingpong_ids]. rewrite IH. reflexivity.
  - cbn [pingpong splice_task splice_thread fl P next_is_wtr pingpong_ids task_frames]. rewrite IH. reflexivity.
Qed.

Lemma pingpong_pp l : forall b, pp_task (pingpong l b) = true.
Proof.
  induction l as [|h l IH]; intros b; [reflexivity|]. destruct h.
  - cbn [pingpong pp_task pp_thread fl P next_is_wtr andb]. apply IH.
  - cbn [pingpong pp_task pp_thread fl P next_is_wtr andb negb task_frames]. apply IH.
Qed.

Lemma pingpong_reentered l b : reentered (pingpong l b) = match l with true :: _ => true | _ => false end.
Proof. destruct l as [|[|] l]; reflexivity. Qed.

Lemma pingpong_f14 l : forall b, no_f14 l = true -> f14_free (pingpong l b) = true.
Proof.
  induction l as [|h l IH]; intros b H; [reflexivity|]. destruct h.
  - cbn [pingpong f14_free fl P andb]. apply IH. destruct l; exact H.
  - cbn [pingpong f14_free fl P andb task_frames]. rewrite pingpong_reentered.
    destruct l as [|[|] l']; try discriminate; cbn [negb andb]; rewrite IH; auto.
Qed.

(* finding F14: the shortest excluded chain — to_thread, from_thread(token), to_thread,
   from_thread (host) — loses everything inward of the token hop *)
Lemma f14_witness :
  no_f14 [false; true] = false /\
  pp_task (pingpong [false; true] 0) = true /\
  ids (frames_of true true (pingpong [false; true] 0)) = [0; 1; 2; 3; 4] /\
  splice_task (pingpong [false; true] 0) = [0; 1; 2; 3; 6; 7; 8; 9; 11; 12; 13].
Proof. repeat split; vm_compute; reflexivity. Qed.

(* For ALL worlds (any kinds, any hop nesting): with recurse_child_tasks=false every child of every context
   of every frame that extract() returns — also the frames spliced in across thread hops — is
   a frameless stub carrying the root of the corresponding child task. *)
Definition is_stub (s : stack) : Prop := exists r, s = Stack (SRTask r) [].
Definition fout_stubs (f : fout) : Prop :=
  Forall (fun c => match c with COut _ kids => Forall is_stub kids end) (fout_cx f).
Definition stubs_only (s : stack) : Prop := match s with Stack _ fs => Forall fout_stubs fs end.

Lemma ext_ctxs_false_stubs cs :
  Forall (fun c => match c with COut _ kids => Forall is_stub kids end) (ext_ctxs false cs).
Proof.
  induction cs as [|c r IH]; [constructor|]. destruct c as [n kids|c]; simpl; constructor; auto.
  clear. induction kids as [|t r IH]; simpl; constructor; auto. destruct t. eexists. reflexivity.
Qed.

Lemma stubs_walk fs : forall inc n d pr, Forall fout_stubs (fst (walk false inc n d pr fs)).
Proof.
  induction fs as [|id k cs r Hk IHr] using frames_hop_ind; intros inc n d pr; [constructor|].
  simpl. destruct (pruned pr d); [apply IHr|].
  assert (Hcx : forall h, fout_stubs (FOut id h (ext_ctxs false cs)))
    by (intros h; apply ext_ctxs_false_stubs).
  destruct k; simpl in *; try (constructor; [apply Hcx | apply IHr]).
  - constructor; [apply Hcx|]. apply Forall_app. split; [apply Hk|].
    destruct (next_is_wtr r); apply IHr.
  - destruct (reentered (task_frames t)); simpl; (constructor; [apply Hcx|]); [apply IHr|].
    apply Forall_app. split; [apply Hk | apply IHr].
Qed.

(* Specification, written from the property text against Trio's own tables. *)
Fixpoint ctx_nids (cs : ctxs) : list nat :=
  match cs with
  | CNil => []
  | CCons (CNurs n _) r => n :: ctx_nids r
  | CCons (COther _) r => ctx_nids r
  end.
Fixpoint frames_nids (fs : frames) : list nat :=
  match fs with FNil => [] | FCons (Frame _ _ cs) r => ctx_nids cs ++ frames_nids r end.
Fixpoint roots (ts : tasks) : list nat :=
  match ts with TNil => [] | TCons t r => task_root t :: roots r end.

(* hop-free segments *)
Definition simple_kind (k : fkind) : bool :=
  match k with KPlain | KHidden | KTrap _ => true | _ => false end.
Fixpoint simpleb (fs : frames) : bool :=
  match fs with FNil => true | FCons (Frame _ k _) r => simple_kind k && simpleb r end.

(* after the first trap nothing opens a nursery (in reality: only `_real_async_yield`) *)
Fixpoint quiet_after_trap (fs : frames) : Prop :=
  match fs with
  | FNil => True
  | FCons (Frame _ k _) r => match k with KTrap _ => frames_nids r = [] | _ => quiet_after_trap r end
  end.

Section Iso.
  Variable nurs_of : nat -> list nat.     (* Trio: task.child_nurseries, in nesting order *)
  Variable kids_of : nat -> list nat.     (* Trio: nursery.child_tasks *)

  Inductive iso : stack -> Prop :=
  | Iso_task r fs :
      nursery_ids fs = nurs_of r ->                 (* each open nursery once, in nesting order *)
      Forall (fun f => Forall ctx_iso (fout_cx f)) fs ->
      iso (Stack (SRTask r) fs)
  with ctx_iso : cout -> Prop :=
  | Iso_nursery n kids :
      map root_id kids = map Some (kids_of n) ->    (* exactly its child tasks, matched by root *)
      Forall iso kids ->                            (* each extracted recursively *)
      ctx_iso (COut (ONurs n) kids)
  | Iso_other c : ctx_iso (COut (OOther c) []).

  (* recurse_child_tasks=False: same nurseries, every child a frameless stub carrying its root *)
  Definition stub (r : nat) : stack := Stack (SRTask r) [].
  Inductive ctx_stub : cout -> Prop :=
  | Stub_nursery n : ctx_stub (COut (ONurs n) (map stub (kids_of n)))
  | Stub_other c : ctx_stub (COut (OOther c) []).
  Definition iso_stub (s : stack) : Prop :=
    match s with
    | Stack (SRTask r) fs => nursery_ids fs = nurs_of r /\ Forall (fun f => Forall ctx_stub (fout_cx f)) fs
    | _ => False
    end.

  (* hypothesis "the per-frame analysis is exact and Trio's tables describe this world":
     the contexts attached to the frames of every task list exactly that task's
     child_nurseries, and every nursery context holds exactly nursery.child_tasks *)
  Fixpoint wf_task (t : task) : Prop :=
    match t with
    | Task r fs => simpleb fs = true /\ quiet_after_trap fs /\ frames_nids fs = nurs_of r /\ wf_frames fs
    end
  with wf_frames (fs : frames) : Prop :=
    match fs with FNil => True | FCons f r => wf_frame f /\ wf_frames r end
  with wf_frame (f : frame) : Prop :=
    match f with Frame _ _ cs => wf_ctxs cs end
  with wf_ctxs (cs : ctxs) : Prop :=
    match cs with CNil => True | CCons c r => wf_ctx c /\ wf_ctxs r end
  with wf_ctx (c : ctx) : Prop :=
    match c with
    | CNurs n kids => roots kids = kids_of n /\ wf_tasks kids
    | COther _ => True
    end
  with wf_tasks (ts : tasks) : Prop :=
    match ts with TNil => True | TCons t r => wf_task t /\ wf_tasks r end.
End Iso.

Lemma nursery_ids_app a b : nursery_ids (a ++ b) = nursery_ids a ++ nursery_ids b.
Proof. unfold nursery_ids. apply flat_map_app. Qed.

Lemma ext_ctxs_nids rc cs :
  flat_map (fun c => match c with COut (ONurs n) _ => [n] | _ => [] end) (ext_ctxs rc cs) = ctx_nids cs.
Proof.
  induction cs as [|c r IH]; [reflexivity|]. destruct c; simpl; rewrite IH; reflexivity.
Qed.

Lemma ext_tasks_map rc ts : ext_tasks rc ts = map (ext_child rc) (tasks_list ts).
Proof. induction ts as [|t r IH]; simpl; [reflexivity|]. rewrite IH. reflexivity. Qed.

Lemma ext_tasks_roots rc ts : map root_id (ext_tasks rc ts) = map Some (roots ts).
Proof.
  induction ts as [|t r IH]; [reflexivity|]. destruct t as [x fs]. simpl. rewrite IH.
  destruct rc; reflexivity.
Qed.

Lemma ext_tasks_stub ts : ext_tasks false ts = map stub (roots ts).
Proof. induction ts as [|t r IH]; [reflexivity|]. destruct t. simpl. rewrite IH. reflexivity. Qed.

(* Tree isomorphism AND hop splicing together: task trees whose tasks may be parked anywhere in
   to_thread/from_thread chains of any depth. *)

(* the system tasks a stack continues into (from_thread.run(trio_token=...) hops), outside in *)
Fixpoint cont_task (fs : frames) : list task :=
  match fs with
  | FNil => []
  | FCons (Frame _ k _) r =>
    match k with
    | KTrap _ => []
    | KToThread tfs => if next_is_wtr r then cont_thread tfs else cont_thread tfs ++ cont_task r
    | _ => cont_task r
    end
  end
with cont_thread (fs : frames) : list task :=
  match fs with
  | FNil => []
  | FCons (Frame _ k _) r =>
    match k with
    | KFromHost => []
    | KFromSys _ t => t :: cont_task (task_frames t)
    | _ => cont_thread r
    end
  end.

(* the frames that a stack does not show open no nursery, and neither do worker-thread frames *)
Fixpoint quiet_task (fs : frames) : Prop :=
  match fs with
  | FNil => True
  | FCons (Frame _ k _) r =>
    match k with
    | KTrap _ => frames_nids r = []
    | KToThread tfs => quiet_thread tfs /\ (if next_is_wtr r then frames_nids r = [] else quiet_task r)
    | _ => quiet_task r
    end
  end
with quiet_thread (fs : frames) : Prop :=
  match fs with
  | FNil => True
  | FCons (Frame _ k cs) r =>
    ctx_nids cs = [] /\
    match k with
    | KFromHost => True
    | KFromSys _ t => quiet_task (task_frames t)
    | _ => quiet_thread r
    end
  end.

Definition nids_fr (l : list frame) : list nat := flat_map (fun f => ctx_nids (frame_ctxs f)) l.
Definition tnids (t : task) : list nat := frames_nids (task_frames t).

Lemma nids_fr_cons f l : nids_fr (f :: l) = ctx_nids (frame_ctxs f) ++ nids_fr l.
Proof. reflexivity. Qed.

Lemma nids_fr_app a b : nids_fr (a ++ b) = nids_fr a ++ nids_fr b.
Proof. apply flat_map_app. Qed.

Lemma nursery_ids_outK rc (l : list frame) : nursery_ids (map (outK rc) l) = nids_fr l.
Proof.
  induction l as [|[id k cs] r IH]; [reflexivity|].
  rewrite nids_fr_cons, <- IH, <- (ext_ctxs_nids rc). reflexivity.
Qed.

(* the nurseries that a stack shows: those of its own frames, then those of the tasks it
   continues into *)
Lemma sp_nids fs :
  (pp_task fs = true -> quiet_task fs ->
     nids_fr (sp_task fs) = frames_nids fs ++ flat_map tnids (cont_task fs)) /\
  (forall ins, pp_thread ins fs = true -> quiet_thread fs ->
     nids_fr (sp_thread fs) = flat_map tnids (cont_thread fs) /\ (ins = true -> cont_thread fs = [])).
Proof.
  induction fs as [|id k cs r Hk [IHt IHh]] using frames_hop_ind.
  { split; [reflexivity|]. intros ins _ _. split; [reflexivity | intros _; reflexivity]. }
  split.
  - intros Hpp Hq. simpl in Hpp, Hq.
    cbn [sp_task cont_task frames_nids]. rewrite nids_fr_cons, <- app_assoc. cbn [frame_ctxs]. f_equal.
    destruct k; simpl in Hpp, Hq, Hk; try discriminate; try (apply IHt; auto).
    + rewrite Hq. reflexivity.
    + destruct Hq as [Hq1 Hq2]. destruct Hk as [_ Hk]. destruct (next_is_wtr r).
      * destruct (Hk false Hpp Hq1) as [E _]. rewrite E, Hq2. reflexivity.
      * apply andb_true_iff in Hpp as [Hp1 Hp2].
        destruct (Hk true Hp1 Hq1) as [E Z]. rewrite (Z eq_refl) in *.
        rewrite nids_fr_app, E. simpl. apply IHt; auto.
  - intros ins Hpp Hq. simpl in Hpp, Hq. destruct Hq as [Hc Hq].
    cbn [sp_thread cont_thread]. rewrite nids_fr_cons. cbn [frame_ctxs]. rewrite Hc. cbn [app].
    destruct k; simpl in Hpp, Hk; try discriminate.
    + apply IHh; auto.
    + apply IHh; auto.
    + split; [reflexivity | intros _; reflexivity].
    + apply andb_true_iff in Hpp as [Hins Hp]. split.
      * rewrite (proj1 Hk Hp Hq). reflexivity.
      * intros ->. discriminate.
Qed.

Section IsoHops.
  Variable nurs_of : nat -> list nat.     (* Trio: task.child_nurseries *)
  Variable kids_of : nat -> list nat.     (* Trio: nursery.child_tasks *)
  Variable cont_of : nat -> list nat.     (* ground truth: the system tasks serving, outside in, the
                                             from_thread.run(trio_token=...) calls a task is parked in *)

  Definition nurs_along (r : nat) : list nat := flat_map nurs_of (r :: cont_of r).

  (* per task: well-typed hop chain outside F14; its own frames carry exactly its
     child_nurseries; what the stack does not show opens no nursery; the tasks it continues
     into are those of the table and their frames carry exactly their child_nurseries *)
  Definition task_ok (r : nat) (fs : frames) : Prop :=
    pp_task fs = true /\ f14_free fs = true /\ quiet_task fs /\
    frames_nids fs = nurs_of r /\
    map task_root (cont_task fs) = cont_of r /\
    Forall (fun t => tnids t = nurs_of (task_root t)) (cont_task fs).

  (* every nursery context anywhere in the world (own, worker-thread and serving-task frames)
     holds exactly nursery.child_tasks, and every child task is well-formed in turn *)
  Fixpoint hwf_task (t : task) : Prop :=
    match t with Task r fs => task_ok r fs /\ hwf_frames fs end
  with hwf_frames (fs : frames) : Prop :=
    match fs with
    | FNil => True
    | FCons (Frame _ k cs) r => hwf_kind k /\ hwf_ctxs cs /\ hwf_frames r
    end
  with hwf_kind (k : fkind) : Prop :=
    match k with
    | KToThread tfs => hwf_frames tfs
    | KFromSys _ t => hwf_frames (task_frames t)
    | _ => True
    end
  with hwf_ctxs (cs : ctxs) : Prop :=
    match cs with CNil => True | CCons c r => hwf_ctx c /\ hwf_ctxs r end
  with hwf_ctx (c : ctx) : Prop :=
    match c with
    | CNurs n kids => roots kids = kids_of n /\ hwf_tasks kids
    | COther _ => True
    end
  with hwf_tasks (ts : tasks) : Prop :=
    match ts with TNil => True | TCons t r => hwf_task t /\ hwf_tasks r end.
End IsoHops.

(* The isomorphism is proved against any table [N] of the nurseries a task's stack shows that
   agrees with [nurs_along]; C14_iso is the case without continuations, where N = nurs_of. *)
Section IsoProofs.
  Variables nurs_of kids_of cont_of N : nat -> list nat.
  Hypothesis HN : forall r, N r = nurs_along nurs_of cont_of r.

  Definition good (f : frame) : Prop := Forall (ctx_iso N kids_of) (ext_ctxs true (frame_ctxs f)).

  Lemma cont_nids (l : list task) :
    Forall (fun t => tnids t = nurs_of (task_root t)) l ->
    flat_map tnids l = flat_map nurs_of (map task_root l).
  Proof. induction 1 as [|t l H _ IH]; simpl; [reflexivity|]. rewrite H, IH. reflexivity. Qed.

  Definition all_good (fs : frames) : Prop := Forall good (sp_task fs) /\ Forall good (sp_thread fs).

  Lemma iso_hops_all :
    (forall t, (hwf_task nurs_of kids_of cont_of t -> iso N kids_of (ext_child true t)) /\
               (hwf_frames nurs_of kids_of cont_of (task_frames t) -> all_good (task_frames t))) /\
    (forall fs, hwf_frames nurs_of kids_of cont_of fs -> all_good fs) /\
    (forall cs, hwf_ctxs nurs_of kids_of cont_of cs -> Forall (ctx_iso N kids_of) (ext_ctxs true cs)) /\
    (forall ts, hwf_tasks nurs_of kids_of cont_of ts -> Forall (iso N kids_of) (ext_tasks true ts)).
  Proof.
    apply world_ind.
    - (* a task: its frames are the splice, which shows the nurseries of the task and of its
         continuations; the contexts of the spliced frames are good by induction *)
      intros r fs IHfs. split; [|exact IHfs].
      intros [[Hpp [Hf14 [Hq [Hn [Hc Hcn]]]]] Hw].
      rewrite ext_child_frames, frames_of_task by assumption. constructor.
      + rewrite nursery_ids_outK, (proj1 (sp_nids fs)) by assumption.
        rewrite Hn, cont_nids, Hc, HN by exact Hcn. reflexivity.
      + rewrite Forall_map. eapply Forall_impl; [|apply IHfs, Hw]. intros [id k cs] Hg. exact Hg.
    - intros _. split; constructor.
    - (* a frame: itself, then what its hop splices in, then the rest of the segment *)
      intros id k cs r Hk Hcs IHr [Hwk [Hwc Hwr]]. destruct (IHr Hwr) as [IHt IHh].
      specialize (Hcs Hwc). split; (constructor; [exact Hcs|]).
      + destruct k; try exact IHt; try constructor.
        destruct (Hk Hwk) as [_ Hk']. destruct (next_is_wtr r); [|apply Forall_app]; auto.
      + destruct k; try exact IHh; try constructor. apply (proj2 Hk Hwk).
    - intros _. constructor.
    - intros n kids r IHk IHr [[Hr Hw] Hcs]. repeat constructor; auto.
      rewrite ext_tasks_roots, Hr. reflexivity.
    - intros c r IHr [_ Hcs]. repeat constructor. auto.
    - intros _. constructor.
    - intros t r [IHt _] IHr [Ht Hr]. constructor; auto.
  Qed.

  Lemma iso_child t : hwf_task nurs_of kids_of cont_of t -> iso N kids_of (ext_child true t).
  Proof. apply iso_hops_all. Qed.

  Lemma extract_ext_child run t : hwf_task nurs_of kids_of cont_of t ->
    extract true (RTask run t) = ext_child true t.
  Proof.
    destruct t as [r fs]. intros [[Hpp [Hf14 _]] _].
    rewrite ext_child_frames. simpl. rewrite !frames_of_task by assumption. reflexivity.
  Qed.

  Lemma ext_child_ids t : hwf_task nurs_of kids_of cont_of t ->
    match ext_child true t with Stack _ fs => ids fs = splice_task (task_frames t) end.
  Proof.
    destruct t as [r fs]. intros [[Hpp [Hf14 _]] _].
    rewrite ext_child_frames, frames_of_task by assumption. apply ids_sp_task.
  Qed.
End IsoProofs.

(* hop-free worlds are the worlds without continuations *)
Lemma simple_hops fs : simpleb fs = true ->
  pp_task fs = true /\ f14_free fs = true /\ cont_task fs = [] /\
  (quiet_after_trap fs -> quiet_task fs) /\ (forall g, In g (sp_task fs) -> In g (frames_list fs)).
Proof.
  induction fs as [|[id k cs] r IH]; intros Hs; [simpl; auto 6|].
  simpl in Hs. apply andb_true_iff in Hs as [Hk Hs]. destruct (IH Hs) as [A [B [C [D E]]]].
  destruct k; try discriminate; simpl; repeat split; auto; intros g [Hg|Hg]; auto; destruct Hg.
Qed.

Section IsoSimple.
  Variables nurs_of kids_of : nat -> list nat.
  Notation none := (fun _ : nat => @nil nat).

  Lemma wf_hwf :
    (forall t, wf_task nurs_of kids_of t -> hwf_task nurs_of kids_of none t) /\
    (forall fs, simpleb fs = true -> wf_frames nurs_of kids_of fs -> hwf_frames nurs_of kids_of none fs) /\
    (forall cs, wf_ctxs nurs_of kids_of cs -> hwf_ctxs nurs_of kids_of none cs) /\
    (forall ts, wf_tasks nurs_of kids_of ts -> hwf_tasks nurs_of kids_of none ts).
  Proof.
    apply world_ind; try exact (fun _ => I).
    - intros r fs IH [Hs [Hq [Hn Hw]]]. destruct (simple_hops fs Hs) as [A [B [C [D _]]]].
      split; [|apply IH; assumption]. unfold task_ok. rewrite C. repeat split; auto.
    - intros _ _. exact I.
    - intros id k cs r _ Hcs IHr Hs [Hc Hw]. simpl in Hs. apply andb_true_iff in Hs as [Hk Hs].
      split; [destruct k; try discriminate; exact I | split; [apply Hcs, Hc | apply IHr; assumption]].
    - intros n kids r IHk IHr [[Hr Hw] Hc]. split; [split; [exact Hr | apply IHk, Hw] | apply IHr, Hc].
    - intros c r IHr [_ Hc]. split; [exact I | apply IHr, Hc].
    - intros t r IHt IHr [Ht Hr]. split; [apply IHt, Ht | apply IHr, Hr].
  Qed.

  Lemma wf_frames_in fs g : wf_frames nurs_of kids_of fs -> In g (frames_list fs) ->
    wf_ctxs nurs_of kids_of (frame_ctxs g).
  Proof.
    induction fs as [|[id k cs] r IH]; simpl; [tauto|]. intros [Hf Hr] [<-|Hg]; auto.
  Qed.

  Lemma simple_nids rc fs : simpleb fs = true -> quiet_after_trap fs ->
    nursery_ids (map (outK rc) (sp_task fs)) = frames_nids fs.
  Proof.
    intros Hs Hq. destruct (simple_hops fs Hs) as [A [_ [C [D _]]]].
    rewrite nursery_ids_outK, (proj1 (sp_nids fs)), C by auto. apply app_nil_r.
  Qed.

  Lemma ext_ctxs_stub cs : wf_ctxs nurs_of kids_of cs -> Forall (ctx_stub kids_of) (ext_ctxs false cs).
  Proof.
    induction cs as [|c r IH]; intros H; [constructor|]. destruct H as [Hc Hr].
    destruct c; simpl; constructor; auto.
    - destruct Hc as [Hk _]. rewrite ext_tasks_stub, Hk. constructor.
    - constructor.
  Qed.

  Lemma stub_frames fs : simpleb fs = true -> wf_frames nurs_of kids_of fs ->
    Forall (fun f => Forall (ctx_stub kids_of) (fout_cx f)) (map (outK false) (sp_task fs)).
  Proof.
    intros Hs Hw. apply Forall_forall. intros o Ho. apply in_map_iff in Ho as [[id k cs] [<- Hg]].
    apply ext_ctxs_stub, (wf_frames_in fs (Frame id k cs) Hw), simple_hops; assumption.
  Qed.
End IsoSimple.

Definition cout_kids (c : cout) : list stack := match c with COut _ k => k end.

Section StackInd.
  Variable Q : stack -> Prop.
  Hypothesis H : forall r fs,
    Forall (fun f => Forall (fun c => Forall Q (cout_kids c)) (fout_cx f)) fs -> Q (Stack r fs).
  Fixpoint stack_ind' (s : stack) : Q s :=
    match s with
    | Stack r fs =>
        H r fs (Forall_all (fun f => Forall_all (fun c => Forall_all stack_ind' (cout_kids c)) (fout_cx f)) fs)
    end.
End StackInd.

Lemma Forall_forallb {A} (Q R : A -> Prop) f l :
  (forall x, Q x -> f x = true -> R x) -> Forall Q l -> forallb f l = true -> Forall R l.
Proof.
  intros H HQ E. rewrite forallb_forall in E. rewrite Forall_forall in *. auto.
Qed.

Lemma iso_b_sound N K s : iso_b N K s = true -> iso (tlookup N) (tlookup K) s.
Proof.
  induction s as [r fs IH] using stack_ind'. intros Hb.
  cbn [iso_b] in Hb. apply andb_true_iff in Hb as [Hr Hf].
  destruct r as [x|x]; [|discriminate].
  constructor; [exact (list_eqb_eq _ nat_eqb_true _ _ Hr)|].
  revert IH Hf. apply Forall_forallb. intros [i h cx] IH Hf. simpl in *.
  revert IH Hf. apply Forall_forallb. intros [o k] IH Hf. simpl in *.
  apply andb_true_iff in Hf as [Ho Hk].
  assert (Hk' : Forall (iso (tlookup N) (tlookup K)) k) by (revert IH Hk; apply Forall_forallb; auto).
  destruct o as [n|c].
  - constructor; [|exact Hk']. exact (list_eqb_eq _ (option_eqb_eq _ nat_eqb_true) _ _ Ho).
  - destruct k; [constructor | discriminate].
Qed.

Lemma leqb_eq {A} (eq : A -> A -> bool) a :
  Forall (fun x => forall y, eq x y = true -> x = y) a -> forall b, leqb eq a b = true -> a = b.
Proof.
  induction 1 as [|x a H _ IH]; intros [|y b] E; try discriminate; [reflexivity|].
  simpl in E. apply andb_true_iff in E as [E1 E2]. f_equal; auto.
Qed.

Lemma stack_eqb_eq a : forall b, stack_eqb a b = true -> a = b.
Proof.
  induction a as [r fs IH] using stack_ind'. intros [r' fs'] E.
  cbn [stack_eqb] in E. apply andb_true_iff in E as [Er Ef]. f_equal.
  { destruct r, r'; try discriminate; apply nat_eqb_true in Er; congruence. }
  revert fs' Ef. apply leqb_eq. eapply Forall_impl; [|exact IH]. clear.
  intros [i h c] IH [i' h' c'] E. simpl in IH, E.
  apply andb_true_iff in E as [E1 Ec]. apply andb_true_iff in E1 as [Ei Eh].
  apply nat_eqb_true in Ei. apply Bool.eqb_prop in Eh. subst. f_equal.
  revert c' Ec. apply leqb_eq. eapply Forall_impl; [|exact IH]. clear.
  intros [o k] IH [o' k'] E. simpl in IH, E. apply andb_true_iff in E as [Eo Ek]. f_equal.
  { destruct o, o'; try discriminate; apply nat_eqb_true in Eo; congruence. }
  revert k' Ek. apply leqb_eq. exact IH.
Qed.

Lemma andb_true_r' b : b && true = b. Proof. apply andb_true_r. Qed.

Lemma guard_frames g : 2 <= g -> forall n cnt, cnt <= 1 -> guard_run g true cnt (repeat true n) = false.
Proof.
  intros Hg. induction n as [|n IH]; intros cnt Hc; simpl; [reflexivity|].
  assert (E : (g <? S cnt) = false) by (apply Nat.ltb_ge; lia). rewrite E. apply IH. lia.
Qed.

Lemma guard_progress g reset : (2 <=? g) = true -> reset = true ->
  forall n, guard_run g reset 0 (task_chain n) = false.
Proof.
  intros Hg -> n. apply Nat.leb_le in Hg. unfold task_chain. simpl.
  assert (E : (g <? 1) = false) by (apply Nat.ltb_ge; lia). rewrite E.
  apply guard_frames; auto.
Qed.

(* without the reset at a Frame the guard caps the total length of the chain *)
Lemma guard_noreset g : forall chain cnt, cnt <= g -> g < cnt + length chain ->
  guard_run g false cnt chain = true.
Proof.
  induction chain as [|y r IH]; intros cnt Hc Hl; simpl in *; [lia|].
  destruct (g <? S cnt) eqn:E; [reflexivity|]. apply Nat.ltb_ge in E.
  rewrite andb_false_r. apply IH; lia.
Qed.

Lemma root_chain_clean r : guard_run unwrap_guard_const true 0 (root_chain r) = false.
Proof.
  destruct r as [[|] [x fs]|tid fs]; try reflexivity.
  unfold root_chain. apply guard_progress; reflexivity.
Qed.

Definition ex_parked (b : nat) : frames :=
  fl [P b; Frame (b + 1) (KTrap true) CNil; P (b + 2)].
Definition ex_tree : task :=
  Task 0 (fl [
    Frame 0 KPlain (cl [CNurs 0 (tl [Task 1 (ex_parked 10);
                                     Task 2 (fl [Frame 20 KPlain (cl [CNurs 1 (tl [Task 3 (ex_parked 30)])]);
                                                 P 21; Frame 22 (KTrap true) CNil; P 23])]);
                        COther 0]);
    Frame 1 KPlain (cl [CNurs 2 TNil]);
    Frame 2 KHidden CNil; Frame 3 (KTrap true) CNil; P 4]).
Definition ex_nurs : table := [(0, [0; 2]); (1, []); (2, [1]); (3, [])].
Definition ex_kids : table := [(0, [1; 2]); (1, [3]); (2, [])].

(* a tree whose children are parked in hop chains (one re-entered through from_thread.run with a
   nursery opened by the call being served, one continued into a system task that holds a
   nursery) satisfies the hypothesis of the combined theorem *)
Definition exh_kidA : task :=
  Task 1 (fl [P 10; Frame 11 (KToThread (fl [P 12; Frame 13 KFromHost CNil; P 14])) CNil;
              Frame 15 KHidden CNil;
              Frame 16 KPlain (cl [CNurs 1 (tl [Task 3 (ex_parked 30)])]);
              Frame 17 (KTrap true) CNil; P 18]).
Definition exh_sys : task :=
  Task 5 (fl [Frame 50 KHidden CNil; Frame 51 KPlain (cl [CNurs 2 (tl [Task 4 (ex_parked 40)])]);
              Frame 52 (KTrap true) CNil; P 53]).
Definition exh_kidB : task :=
  Task 2 (fl [P 20; Frame 21 (KToThread (fl [P 22; Frame 23 (KFromSys false exh_sys) CNil; P 24])) CNil;
              Frame 25 (KTrap true) CNil; P 26]).
Definition exh_tree : task :=
  Task 0 (fl [Frame 0 KPlain (cl [CNurs 0 (tl [exh_kidA; exh_kidB])]); Frame 1 (KTrap true) CNil; P 2]).
Definition exh_nurs : table := [(0, [0]); (1, [1]); (5, [2])].
Definition exh_kids : table := [(0, [1; 2]); (1, [3]); (2, [4])].
Definition exh_cont : table := [(2, [5])].

Lemma exh_tree_frames :
  match extract true (RTask false exh_kidB) with Stack _ fs => ids fs end = [20; 21; 22; 23; 50; 51; 52].
Proof. vm_compute. reflexivity. Qed.
