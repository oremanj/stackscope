(* P_Frames_TwoRun.v — C05, the same tables run under two fault sets.  A successful step consults
   only the fault ticks it consumes (the [*_local] lemmas); the prefix statement then goes round by
   round over the instrumented run [runT]. *)
Require Import Base M_Frames M_Frames_Fault P_Frames_Step P_Frames_Fault.

Definition agree (c : cfg) (fl : nat -> bool) (a b : nat) : Prop :=
  forall x, a <= x < b -> fl x = fault c x.

Lemma agree_sub {c fl a b} a' b' : agree c fl a b -> a <= a' -> b' <= b -> agree c fl a' b'.
Proof. intros H L1 L2 x Hx. apply H. lia. Qed.

Lemma with_faults_back c fl : with_faults (with_faults c fl) (fault c) = c.
Proof. destruct c. reflexivity. Qed.

Lemma iter_local c fl o : forall l raises t k e t',
  iter_steps c o l raises t = (k, e, t') -> agree c fl t t' ->
  iter_steps (with_faults c fl) o l raises t = (k, e, t').
Proof.
  induction l as [|i l IH]; intros raises t k e t' H A; pose proof (iter_steps_lt _ _ _ _ _ _ _ _ H) as L;
    simpl in *; rewrite (A t) by lia; destruct (fault c t); try exact H.
  destruct (iter_steps c o l raises (S t)) as [[k1 e1] t1] eqn:E. inversion H; subst.
  rewrite (IH _ _ _ _ _ E) by (apply (agree_sub _ _ A); lia). reflexivity.
Qed.

Lemma unwrap_head_local cnt c fl cur errs t :
  match unwrap_head cnt c cur errs t with
  | ULeaf _ t' | UPush _ _ t' =>
      agree c fl t t' -> unwrap_head cnt (with_faults c fl) cur errs t = unwrap_head cnt c cur errs t
  | UFail _ => True
  end.
Proof.
  (* every branch asks [fault] at tick t only, and the iterator branch at its own ticks
     ([iter_local]): where the two fault sets agree on [t,t') the same branch is taken *)
  unfold unwrap_head. cbn [with_faults fault grd unwrap uguard].
  destruct cur as [f|f o|o|]; try reflexivity; destruct (g_unwrap (grd c)), (fault c t) eqn:F; try exact I;
    try (intros A; rewrite (A t), F by lia; reflexivity).
  1,2: destruct (unwrap c o) as [|i|l|l b|]; try (destruct (uguard c <? S cnt)); try exact I;
    try (intros A; rewrite (A t), F by lia; reflexivity);
    destruct (iter_steps c o l b (S t)) as [[k e] t2] eqn:E; pose proof (iter_steps_lt _ _ _ _ _ _ _ _ E) as L;
    (destruct e as [e|]; [destruct (g_iter (grd c)); [|exact I]|]); intros A; rewrite (A t), F by lia;
    rewrite (iter_local c fl o _ _ _ _ _ _ E) by (apply (agree_sub _ _ A); lia); reflexivity.
  all: destruct (uguard c <? S cnt); try exact I; intros A; rewrite (A t), F by lia; reflexivity.
Qed.

Lemma flatten_local fuel fl : forall cnt c tu te errs t te' errs' t',
  flatten fuel cnt c tu te errs t = FlOk te' errs' t' -> agree c fl t t' ->
  flatten fuel cnt (with_faults c fl) tu te errs t = FlOk te' errs' t'.
Proof.
  induction fuel as [|fuel IH]; intros cnt c tu te errs t te' errs' t' H A; [discriminate|].
  destruct tu as [|[[org cur] d] tu']; [exact H|].
  rewrite flatten_cons in *.
  pose proof (unwrap_head_local cnt c fl cur errs t) as U.
  pose proof (unwrap_head_adv cnt c cur errs t) as Ad.
  destruct (unwrap_head cnt c cur errs t) as [e1 t1|l e1 t1|e] eqn:E; [| |discriminate];
    destruct Ad as [_ L1]; pose proof (flatten_adv _ _ _ _ _ _ _ _ _ _ H) as [_ L2];
    (rewrite U by (apply (agree_sub _ _ A); lia));
    (apply IH; [exact H|apply (agree_sub _ _ A); lia]).
Qed.

Section Local.
Variables (c : cfg) (fl : nat -> bool) (r1 r2 : item -> nat -> outcome * nat).
Hypothesis Hl : forall k t s t', r1 k t = (Ok s, t') -> agree c fl t t' -> r2 k t = (Ok s, t').
Hypothesis Hm : runner_mono r1.
Hypothesis Ht : runner_total r1.

Lemma run_kids_local : forall kids acc t ks t',
  run_kids r1 kids acc t = (ks, None, t') -> agree c fl t t' -> run_kids r2 kids acc t = (ks, None, t').
Proof.
  induction kids as [|k r IH]; intros acc t ks t' H A; simpl in *; [exact H|].
  destruct (r1 k t) as [[s| |] t1] eqn:E; try discriminate.
  pose proof (Hm _ _ _ _ E) as L1. pose proof (run_kids_mono r1 Hm _ _ _ _ _ _ H) as L2.
  rewrite (Hl _ _ _ _ E) by (apply (agree_sub _ _ A); lia).
  apply IH; [exact H|]. apply (agree_sub _ _ A); lia.
Qed.

Lemma fill_all_local : g_fill (grd c) = true ->
  forall l acc errs t cx errs' t', fill_all c r1 l acc errs t = (cx, errs', t', None) -> agree c fl t t' ->
  fill_all (with_faults c fl) r2 l acc errs t = (cx, errs', t', None).
Proof.
  intros Hg. induction l as [|cid r IH]; intros acc errs t cx errs' t' H A; simpl in *; [exact H|].
  rewrite Hg in *.
  assert (Rec : forall ks errs0 t0, t < t0 -> fill_all c r1 r (COut cid ks :: acc) errs0 t0 = (cx, errs', t', None) ->
                  fl t = fault c t /\ agree c fl t0 t' /\ t0 <= t').
  { intros ks errs0 t0 L E. destruct (fill_all_adv c r1 Hm _ _ _ _ _ _ _ _ E) as [_ L'].
    split; [apply A; lia|]. split; [apply (agree_sub _ _ A); lia|exact L']. }
  destruct (fault c t) eqn:F.
  { destruct (Rec _ _ _ (le_n _) H) as (-> & A' & _). apply IH; assumption. }
  destruct (fill c cid) as [kids|].
  2:{ destruct (Rec _ _ _ (le_n _) H) as (-> & A' & _). apply IH; assumption. }
  destruct (run_kids r1 kids [] (S t)) as [[ks [b|]] t1] eqn:Ek.
  { destruct b; try discriminate. exfalso. eapply run_kids_total; eauto. }
  pose proof (run_kids_mono r1 Hm _ _ _ _ _ _ Ek) as L1.
  destruct (Rec _ _ _ L1 H) as (-> & A' & L2).
  rewrite (run_kids_local _ _ _ _ _ Ek) by (apply (agree_sub _ _ A); lia).
  apply IH; assumption.
Qed.

Lemma ctx_step_local : g_fill (grd c) = true -> g_ctx (grd c) = true ->
  forall f errs t cx errs' t', ctx_step c r1 f errs t = (cx, errs', t', None) -> agree c fl t t' ->
  ctx_step (with_faults c fl) r2 f errs t = (cx, errs', t', None).
Proof.
  intros Hf Hc f errs t cx errs' t' H A. unfold ctx_step in *. simpl. rewrite Hc in *.
  destruct (negb (with_ctx c)); [exact H|].
  assert (L : t < t').
  { destruct (fault c t); [inversion H; lia|]. destruct (ctxs c f); [|inversion H; lia].
    apply (fill_all_adv c r1 Hm) in H. destruct H as [_ L]. exact L. }
  rewrite (A t) by lia.
  destruct (fault c t); [exact H|]. destruct (ctxs c f); [|exact H].
  apply (fill_all_local Hf); [exact H|]. apply (agree_sub _ _ A); lia.
Qed.
End Local.

Lemma elab_step_local c fl f errs t r errs' h t' oe :
  elab_step c f errs t = (r, errs', h, t', oe) -> agree c fl t t' ->
  elab_step (with_faults c fl) f errs t = (r, errs', h, t', oe).
Proof.
  intros H A. destruct (elab_step_adv _ _ _ _ _ _ _ _ _ H) as [_ ->].
  unfold elab_step in *. simpl. rewrite (A t) by lia. exact H.
Qed.

(* Instrumented run: the same traversal, additionally recording for every yielded frame the tick
   at which it was yielded (= number of hook invocations made before the `yield`).
   [runT_erase] shows that forgetting the ticks gives M_Frames.run itself. *)

Inductive iter_res :=
  | IStop (o : outcome) (t : nat)
  | IEmit (fo : fout) (errs : list err) (t : nat) (tu' : list qent) (te' : list tent).

Definition iterT (fuel' : nat) (c : cfg) (tu : list qent) (te : list tent) (errs : list err)
           (out_rev : list fout) (t : nat) : iter_res :=
  match flatten (S fuel') 0 c tu (rev te) errs t with
  | FlFuel => IStop OutOfFuel t
  | FlRaised e => IStop (Raised e) t
  | FlOk te errs t =>
    match te with
    | [] => IStop (Ok (Stack (rev out_rev) LNone (rev errs))) t
    | (QFr f org, d) :: rest =>
        let next := next_of rest in
        let runner k t := run fuel' false c [(better_origin c (q_of k) None, q_of k, 0)] [] [] [] t in
        match ctx_step c runner f errs t with
        | (_, _, t, Some bad) => IStop bad t
        | (cx, errs, t, None) =>
          match elab_step c f errs t with
          | (_, _, _, t, Some e) => IStop (Raised e) t
          | (r, errs, hide, t, None) =>
            let fo := FOut f hide org cx in
            match r with
            | ENone => IEmit fo errs t [] rest
            | EOne RNone => IEmit fo errs t [] rest
            | EOne RNext =>
                match next with
                | None | Some QNone => IEmit fo errs t [] rest
                | _ => IEmit fo errs t (redepth d (requeue rest)) []
                end
            | _ =>
              let l := match r with ESeq l => l | EOne x => [x] | _ => [] end in
              let mk q := (better_origin c q None, q, d) in
              let tu' :=
                if ends_with_next next l
                then map mk (map (conc next) (removelast l)) ++ redepth d (requeue rest)
                else map mk (map (conc next) l) ++ dropge d (requeue rest) in
              IEmit fo errs t tu' []
            end
          end
        end
    | (q, _) :: rest =>
        IStop (Ok (Stack (rev out_rev)
                         (match rest with [] => LOne q | _ => LMany (map fst te) end)
                         (rev errs))) t
    end
  end.

Fixpoint runT (fuel : nat) (first : bool) (c : cfg) (tu : list qent) (te : list tent)
         (errs : list err) (outp : list (fout * nat)) (t : nat) : outcome * nat * list (fout * nat) :=
  match fuel with
  | 0 => (OutOfFuel, t, [])
  | S fuel' =>
      match iterT fuel' c tu te errs (map fst outp) t with
      | IStop o t' => (o, t', rev outp)
      | IEmit fo errs' t' tu' te' =>
          let outp' := (fo, t') :: outp in
          if first then (Ok (Stack (rev (map fst outp')) LNone (rev errs')), t', rev outp')
          else runT fuel' first c tu' te' errs' outp' t'
      end
  end.

Lemma iterT_eq fuel c tu te errs out t :
  iterT fuel c tu te errs out t =
  match flatten (S fuel) 0 c tu (rev te) errs t with
  | FlFuel => IStop OutOfFuel t
  | FlRaised e => IStop (Raised e) t
  | FlOk ((QFr f org, d) :: rest) errs1 t1 =>
      match ctx_step c (child_of (run fuel) c) f errs1 t1 with
      | (_, _, t2, Some bad) => IStop bad t2
      | (cx, errs2, t2, None) =>
          match elab_step c f errs2 t2 with
          | (_, _, _, t3, Some e) => IStop (Raised e) t3
          | (r, errs3, hide, t3, None) =>
              IEmit (FOut f hide org cx) errs3 t3 (fst (requeued c r d rest)) (snd (requeued c r d rest))
          end
      end
  | FlOk te1 errs1 t1 => IStop (Ok (leaf_stack out te1 errs1)) t1
  end.
Proof.
  unfold iterT.
  destruct (flatten (S fuel) 0 c tu (rev te) errs t) as [te1 errs1 t1|e1|]; try reflexivity.
  destruct te1 as [|[[f|f org|o|] d] rest]; try reflexivity; try (destruct rest; reflexivity). cbv zeta.
  change (fun k t => run fuel false c [(better_origin c (q_of k) None, q_of k, 0)] [] [] [] t)
    with (child_of (run fuel) c).
  destruct (ctx_step c (child_of (run fuel) c) f errs1 t1) as [[[cx errs2] t2] [bad|]]; [reflexivity|].
  destruct (elab_step c f errs2 t2) as [[[[r errs3] hide] t3] [e|]]; [reflexivity|].
  destruct r as [|l|[i| |]|]; try reflexivity. cbn [requeued]. destruct (next_of rest) as [[| | |]|]; reflexivity.
Qed.

Lemma run_iterT fuel first c tu te errs out t :
  run (S fuel) first c tu te errs out t =
  match iterT fuel c tu te errs out t with
  | IStop o t' => (o, t')
  | IEmit fo errs' t' tu' te' =>
      if first then (Ok (Stack (rev (fo :: out)) LNone (rev errs')), t')
      else run fuel first c tu' te' errs' (fo :: out) t'
  end.
Proof.
  rewrite run_S, iterT_eq. unfold run_step.
  destruct (flatten (S fuel) 0 c tu (rev te) errs t) as [te1 errs1 t1|e1|]; try reflexivity.
  destruct te1 as [|[[f|f org|o|] d] rest]; try reflexivity.
  destruct (ctx_step c _ f errs1 t1) as [[[cx errs2] t2] [bad|]]; [reflexivity|].
  destruct (elab_step c f errs2 t2) as [[[[r errs3] hide] t3] [e|]]; [reflexivity|].
  destruct first; reflexivity.
Qed.

Lemma runT_erase fuel : forall first c tu te errs outp t,
  fst (runT fuel first c tu te errs outp t) = run fuel first c tu te errs (map fst outp) t.
Proof.
  induction fuel as [|fuel IH]; intros first c tu te errs outp t; [reflexivity|].
  cbn [runT]. rewrite run_iterT. destruct (iterT fuel c tu te errs (map fst outp) t); [reflexivity|].
  destruct first; [reflexivity|apply IH].
Qed.

Lemma round_local fuel c fl tu te errs out t :
  grd c = all_guards ->
  (forall k t0 s t', child_of (run fuel) c k t0 = (Ok s, t') -> agree c fl t0 t' ->
                     child_of (run fuel) (with_faults c fl) k t0 = (Ok s, t')) ->
  match iterT fuel c tu te errs out t with
  | IStop (Ok s) t' => agree c fl t t' -> iterT fuel (with_faults c fl) tu te errs out t = IStop (Ok s) t'
  | IEmit fo errs' t' tu' te' =>
      t < t' /\ (agree c fl t t' -> iterT fuel (with_faults c fl) tu te errs out t = IEmit fo errs' t' tu' te')
  | _ => True
  end.
Proof.
  intros Hg Hl. destruct (all_guards_fields c Hg) as (Hu & Hi & Hc & Hf & He).
  rewrite !iterT_eq.
  destruct (flatten (S fuel) 0 c tu (rev te) errs t) as [te1 errs1 t1|e1|] eqn:Efl; try exact I.
  destruct (flatten_adv _ _ _ _ _ _ _ _ _ _ Efl) as [_ L1].
  destruct te1 as [|[[f|f org|o|] d] rest];
    try (intros A; rewrite (flatten_local _ fl _ _ _ _ _ _ _ _ _ Efl A); reflexivity).
  assert (Hm : runner_mono (child_of (run fuel) c)) by (intros k t0 o0 t0' E; apply (run_adv _ _ _ _ _ _ _ _ _ _ E)).
  assert (Ht : runner_total (child_of (run fuel) c)) by (intros k t0 e0; apply run_total; assumption).
  destruct (ctx_step c (child_of (run fuel) c) f errs1 t1) as [[[cx errs2] t2] [bad|]] eqn:Ecx.
  { destruct bad as [s| |]; try exact I. exfalso. eapply ctx_step_bad_not_ok; eauto. }
  destruct (ctx_step_adv _ _ _ _ _ _ _ _ _ Hm Ecx) as [_ L2].
  destruct (elab_step c f errs2 t2) as [[[[r errs3] hide] t3] [e|]] eqn:Eel; [exact I|].
  destruct (elab_step_adv _ _ _ _ _ _ _ _ _ Eel) as [_ ->].
  split; [lia|]. intros A.
  rewrite (flatten_local _ fl _ _ _ _ _ _ _ _ _ Efl) by (apply (agree_sub _ _ A); lia).
  rewrite (ctx_step_local c fl _ (child_of (run fuel) (with_faults c fl)) Hl Hm Ht Hf Hc _ _ _ _ _ _ Ecx)
    by (apply (agree_sub _ _ A); lia).
  rewrite (elab_step_local c fl _ _ _ _ _ _ _ _ Eel) by (apply (agree_sub _ _ A); lia).
  reflexivity.
Qed.

Lemma run_local fuel fl : forall first c tu te errs out t s t',
  grd c = all_guards ->
  run fuel first c tu te errs out t = (Ok s, t') -> agree c fl t t' ->
  run fuel first (with_faults c fl) tu te errs out t = (Ok s, t').
Proof.
  induction fuel as [|fuel IH]; intros first c tu te errs out t s t' Hg H A; [discriminate|].
  rewrite run_iterT in *.
  pose proof (round_local fuel c fl tu te errs out t Hg (fun k t0 s0 t0' => IH _ _ _ _ _ _ _ _ _ Hg)) as R.
  destruct (iterT fuel c tu te errs out t) as [o u|fo e u tu1 te1].
  - inversion H; subst. rewrite (R A). reflexivity.
  - destruct R as [Lu R]. destruct first.
    + inversion H; subst. rewrite (R A). reflexivity.
    + destruct (run_adv _ _ _ _ _ _ _ _ _ _ H) as [L _].
      rewrite R by (apply (agree_sub _ _ A); lia).
      apply IH; [exact Hg|exact H|apply (agree_sub _ _ A); lia].
Qed.

Lemma extract_local c fl root s t' :
  grd c = src_guards -> extract_t c root 0 = (Ok s, t') -> agree c fl 0 t' ->
  extract_t (with_faults c fl) root 0 = (Ok s, t').
Proof.
  intros Hg. unfold extract_t. intros H A.
  change (root_q (with_faults c fl) root) with (root_q c root).
  apply run_local; [rewrite Hg; apply src_guards_all|exact H|exact A].
Qed.

Lemma iterT_local fuel c fl tu te errs out t fo errs' t' tu' te' :
  grd c = all_guards ->
  iterT fuel c tu te errs out t = IEmit fo errs' t' tu' te' -> agree c fl t t' ->
  iterT fuel (with_faults c fl) tu te errs out t = IEmit fo errs' t' tu' te'.
Proof.
  intros Hg H.
  pose proof (round_local fuel c fl tu te errs out t Hg (fun k t0 s0 t0' => run_local _ _ _ _ _ _ _ _ _ _ _ Hg)) as R.
  rewrite H in R. apply R.
Qed.

Lemma iterT_emit_lt fuel c tu te errs out t fo errs' t' tu' te' :
  grd c = all_guards -> iterT fuel c tu te errs out t = IEmit fo errs' t' tu' te' -> t < t'.
Proof.
  intros Hg H.
  pose proof (round_local fuel c (fault c) tu te errs out t Hg (fun k t0 s0 t0' => run_local _ _ _ _ _ _ _ _ _ _ _ Hg)) as R.
  rewrite H in R. apply R.
Qed.

Definition upto (T : nat) (ps : list (fout * nat)) : list (fout * nat) :=
  filter (fun p => snd p <=? T) ps.

Lemma upto_snoc_late T ps p : T < snd p -> upto T (ps ++ [p]) = upto T ps.
Proof.
  intros L. unfold upto. rewrite filter_app. cbn [filter].
  rewrite (proj2 (Nat.leb_gt _ _) L). apply app_nil_r.
Qed.

Lemma runT_after fuel : forall first c tu te errs outp t s t' ps T,
  grd c = all_guards -> T <= t ->
  runT fuel first c tu te errs outp t = (Ok s, t', ps) -> upto T ps = upto T (rev outp).
Proof.
  induction fuel as [|fuel IH]; intros first c tu te errs outp t s t' ps T Hg LT H; [discriminate|].
  cbn [runT] in H.
  destruct (iterT fuel c tu te errs (map fst outp) t) as [o t1|fo errs1 t1 tu1 te1] eqn:I.
  - inversion H; subst. reflexivity.
  - pose proof (iterT_emit_lt _ _ _ _ _ _ _ _ _ _ _ _ Hg I) as L.
    transitivity (upto T (rev ((fo, t1) :: outp))); [|apply upto_snoc_late; simpl; lia].
    destruct first; [inversion H; reflexivity|].
    apply (IH _ _ _ _ _ _ _ _ _ _ T Hg) in H; [exact H|lia].
Qed.

Lemma runT_late fuel first c tu te errs outp t s t' ps T :
  grd c = all_guards ->
  runT (S fuel) first c tu te errs outp t = (Ok s, t', ps) ->
  (forall fo e t3 tu' te', iterT fuel c tu te errs (map fst outp) t = IEmit fo e t3 tu' te' -> T < t3) ->
  upto T ps = upto T (rev outp).
Proof.
  intros Hg H Late. cbn [runT] in H.
  destruct (iterT fuel c tu te errs (map fst outp) t) as [o t1|fo errs1 t1 tu1 te1] eqn:I.
  - inversion H; subst. reflexivity.
  - specialize (Late _ _ _ _ _ eq_refl).
    transitivity (upto T (rev ((fo, t1) :: outp))); [|apply upto_snoc_late; exact Late].
    destruct first; [inversion H; reflexivity|].
    apply (runT_after _ _ _ _ _ _ _ _ _ _ _ T Hg) in H; [exact H|lia].
Qed.

Lemma emit_by_or_late T (r : iter_res) :
  (exists fo e u tu' te', r = IEmit fo e u tu' te' /\ u <= T) \/
  (forall fo e u tu' te', r = IEmit fo e u tu' te' -> T < u).
Proof.
  destruct r as [o u|fo e u tu1 te1]; [right; discriminate|].
  destruct (Nat.lt_ge_cases T u) as [L|L]; [right; intros ? ? ? ? ? [= _ _ <- _ _]; exact L|left; eauto 8].
Qed.

(* one round under two fault sets that agree below T: a frame yielded by T under either is yielded
   alike under the other, by locality in either direction *)
Lemma round_two fuel c fl T tu te errs out t :
  grd c = all_guards -> (forall x, x < T -> fl x = fault c x) ->
  (exists fo e u tu' te', iterT fuel c tu te errs out t = IEmit fo e u tu' te' /\
                          iterT fuel (with_faults c fl) tu te errs out t = IEmit fo e u tu' te') \/
  ((forall fo e u tu' te', iterT fuel c tu te errs out t = IEmit fo e u tu' te' -> T < u) /\
   (forall fo e u tu' te', iterT fuel (with_faults c fl) tu te errs out t = IEmit fo e u tu' te' -> T < u)).
Proof.
  intros Hg A.
  destruct (emit_by_or_late T (iterT fuel c tu te errs out t)) as [(fo & e & u & tu1 & te1 & I1 & L)|Late1].
  { left. exists fo, e, u, tu1, te1. split; [exact I1|].
    apply iterT_local; [exact Hg|exact I1|]. intros x Hx. apply A. lia. }
  destruct (emit_by_or_late T (iterT fuel (with_faults c fl) tu te errs out t))
    as [(fo & e & u & tu1 & te1 & I2 & L)|Late2]; [|right; split; assumption].
  left. exists fo, e, u, tu1, te1. split; [|exact I2].
  rewrite <- (with_faults_back c fl) at 1.
  apply iterT_local; [exact Hg|exact I2|]. intros x Hx. symmetry. apply A. lia.
Qed.

Lemma two_run_prefix fuel : forall first c fl T tu te errs outp t s1 t1 ps1 s2 t2 ps2,
  grd c = all_guards -> (forall x, x < T -> fl x = fault c x) ->
  runT fuel first c tu te errs outp t = (Ok s1, t1, ps1) ->
  runT fuel first (with_faults c fl) tu te errs outp t = (Ok s2, t2, ps2) ->
  upto T ps1 = upto T ps2.
Proof.
  induction fuel as [|fuel IH]; intros first c fl T tu te errs outp t s1 t1 ps1 s2 t2 ps2 Hg A H1 H2; [discriminate|].
  destruct (round_two fuel c fl T tu te errs (map fst outp) t Hg A)
    as [(fo & e & u & tu1 & te1 & I1 & I2)|[Late1 Late2]].
  - (* the same round under both fault sets: continue in lockstep *)
    cbn [runT] in H1, H2. rewrite I1 in H1. rewrite I2 in H2.
    destruct first.
    + inversion H1; inversion H2; subst. reflexivity.
    + eapply IH; [exact Hg|exact A|exact H1|exact H2].
  - (* no frame by T in this round, hence none later, under either *)
    rewrite (runT_late fuel first c tu te errs outp t s1 t1 ps1 T Hg H1 Late1).
    symmetry. exact (runT_late fuel first (with_faults c fl) tu te errs outp t s2 t2 ps2 T Hg H2 Late2).
Qed.

Lemma iterT_stop_frames fuel c tu te errs out t frs lf es t' :
  iterT fuel c tu te errs out t = IStop (Ok (Stack frs lf es)) t' -> frs = rev out.
Proof.
  rewrite iterT_eq. intros H.
  destruct (flatten (S fuel) 0 c tu (rev te) errs t) as [te1 errs1 t1|e1|]; try discriminate.
  destruct te1 as [|[[f|f org|o|] d] rest]; try (inversion H; reflexivity).
  destruct (ctx_step c _ f errs1 t1) as [[[cx errs2] t2] [bad|]] eqn:Ecx.
  { inversion H; subst. exfalso. eapply ctx_step_bad_not_ok; eauto. }
  destruct (elab_step c f errs2 t2) as [[[[r errs3] hide] t3] [e|]]; discriminate.
Qed.

Lemma runT_frames fuel : forall first c tu te errs outp t frs lf es t' ps,
  runT fuel first c tu te errs outp t = (Ok (Stack frs lf es), t', ps) -> frs = map fst ps.
Proof.
  induction fuel as [|fuel IH]; intros first c tu te errs outp t frs lf es t' ps H; [discriminate|].
  cbn [runT] in H.
  destruct (iterT fuel c tu te errs (map fst outp) t) as [o t1|fo errs1 t1 tu1 te1] eqn:I.
  - inversion H; subst. apply iterT_stop_frames in I. rewrite I. symmetry. apply map_rev.
  - destruct first; [|eapply IH; eassumption].
    inversion H; subst. rewrite map_app, map_rev. reflexivity.
Qed.

Lemma runT_extract c root s t ps :
  runT default_fuel false c (root_q c root) [] [] [] 0 = (Ok s, t, ps) ->
  extract c root = Ok s /\ s_frames s = map fst ps.
Proof.
  intros H. split.
  - pose proof (runT_erase default_fuel false c (root_q c root) [] [] [] 0) as E. rewrite H in E.
    cbn [fst map] in E. unfold extract, extract_t. rewrite <- E. reflexivity.
  - destruct s as [frs lf es]. eapply runT_frames. exact H.
Qed.
