(* C04 -- running-stack extraction and StackSlice slicing equal slices of the true stack.
   The theorems are about the model functions of M_Slice.v that the correspondence
   (harness/c04.py) evaluates on real stacks. *)
From Coq Require Import ZArith String.
Require Import Base M_Slice P_Slice P_PySlice.
From SS.gen Require Import SrcFacts.

(* wf w = all frames are pairwise distinct objects (nothing else).
   For every world (= every segmentation of the running stack into nested greenlets, any frames
   of stackscope's own between the API and get_true_caller), every outer/inner in the true stack
   or None with outer not inward of inner, every limit >= 1 or None: extract(StackSlice(...))
   yields exactly the contiguous sub-list outer..inner of the flattened true stack; a limit
   keeps the frames nearest outer if only outer is given, else nearest inner / the caller. *)
Theorem C04_slice_exact : forall w o i lim,
  wf w -> true_caller w <> None ->
  anchor_ok w o -> anchor_ok w i -> ordered w o i -> limit_ok lim ->
  unwrap_stackslice w {| s_outer := o; s_inner := i; s_limit := lim |}
  = SFrames (keep_limit lim o i (between o i (true_stack w))).
Proof. exact slice_exact. Qed.
Print Assumptions C04_slice_exact.

(* the true stack is the concatenation of the greenlet segments, outermost greenlet first *)
Theorem C04_true_stack_segments : forall w,
  true_stack w = concat (rev (map (@rev nat) (caller_chain w :: w_parents w))).
Proof. intros w. unfold true_stack, thread_frames. rewrite <- rev_concat. reflexivity. Qed.
Print Assumptions C04_true_stack_segments.

(* no returned frame is one of stackscope's own (the frames get_true_caller skips) *)
Theorem C04_no_own_frames : forall w o i lim l,
  wf w -> true_caller w <> None ->
  anchor_ok w o -> anchor_ok w i -> ordered w o i -> limit_ok lim ->
  unwrap_stackslice w {| s_outer := o; s_inner := i; s_limit := lim |} = SFrames l ->
  forall f, In f l -> In f (true_stack w) /\ ~ In f (own_frames w).
Proof.
  intros w o i lim l Hwf Htc Ho Hi Hord Hlim E f Hf.
  rewrite (slice_exact w o i lim Hwf Htc Ho Hi Hord Hlim) in E. injection E as <-.
  apply keep_between_incl in Hf. split; [exact Hf|].
  intros Hown. apply (own_disjoint w f Hwf Hown). apply in_rev. exact Hf.
Qed.
Print Assumptions C04_no_own_frames.

(* extract_since(None) = the whole true stack, ending with the caller *)
Theorem C04_since_none : forall w,
  wf w -> true_caller w <> None ->
  run_api w (ASince None) = AOk (SFrames (true_stack w))
  /\ exists pre tc, true_caller w = Some tc /\ true_stack w = pre ++ [tc].
Proof.
  intros w Hwf Htc. split.
  - simpl. rewrite (slice_exact w None None None Hwf Htc I I I I). reflexivity.
  - unfold true_stack, thread_frames, true_caller in *.
    destruct (caller_chain w) as [|tc l]; [simpl in Htc; congruence|].
    exists (rev (l ++ concat (w_parents w))), tc. split; reflexivity.
Qed.
Print Assumptions C04_since_none.

(* extract_until(inner, limit=n) *)
Theorem C04_until_int_limit : forall w i lim,
  wf w -> true_caller w <> None -> In i (true_stack w) -> limit_ok lim ->
  run_api w (AUntilN i lim)
  = AOk (SFrames (keep_limit lim None (Some i) (between None (Some i) (true_stack w)))).
Proof.
  intros w i lim Hwf Htc Hi Hlim. simpl.
  rewrite (slice_exact w None (Some i) lim Hwf Htc I Hi I Hlim). reflexivity.
Qed.
Print Assumptions C04_until_int_limit.

(* extract_until(inner, limit=frame): a limit reachable from inner by f_back is in the true
   stack, not inward of inner, and the result is the slice limit..inner; otherwise it raises *)
Theorem C04_until_frame_limit : forall w i lim,
  wf w -> true_caller w <> None -> In i (true_stack w) ->
  (In lim (chain_from w i) ->
     run_api w (AUntilF i lim) = AOk (SFrames (between (Some lim) (Some i) (true_stack w)))
     /\ In lim (true_stack w) /\ In i (from_anchor lim (true_stack w)))
  /\ (~ In lim (chain_from w i) -> run_api w (AUntilF i lim) = ARaised).
Proof. exact until_frame_limit. Qed.
Print Assumptions C04_until_frame_limit.

(* outer on another thread's stack (first such thread in sys._current_frames() order), no
   inner: that thread's frames from outer inward; a limit keeps the frames nearest outer *)
Theorem C04_other_thread_outer : forall w o lim pre ch post,
  wf w -> true_caller w <> None ->
  w_threads w = pre ++ (false, ch) :: post ->
  (forall me c, In (me, c) pre -> me = true \/ ~ In o c) ->
  In o ch -> ~ In o (thread_frames w) -> limit_ok lim ->
  unwrap_stackslice w {| s_outer := Some o; s_inner := None; s_limit := lim |}
  = SFrames (keep_limit lim (Some o) None (from_anchor o (rev ch))).
Proof. exact other_thread_outer. Qed.
Print Assumptions C04_other_thread_outer.

Theorem C04_other_thread_example :
  wf w_thr /\ unwrap_stackslice w_thr {| s_outer := Some 10; s_inner := None; s_limit := Some 2%Z |}
              = SFrames [10; 11].
Proof. exact w_thr_ok. Qed.
Print Assumptions C04_other_thread_example.

(* the hypotheses are met by a non-trivial world (nested greenlets, one parent never started) *)
Theorem C04_hypotheses_satisfiable :
  wf w_ex /\ true_caller w_ex = Some 7 /\ anchor_ok w_ex (Some 1) /\ anchor_ok w_ex (Some 6)
  /\ ordered w_ex (Some 1) (Some 6) /\ limit_ok (Some 2%Z)
  /\ unwrap_stackslice w_ex {| s_outer := Some 1; s_inner := Some 6; s_limit := Some 2%Z |} = SFrames [5; 6].
Proof. exact w_ex_ok. Qed.
Print Assumptions C04_hypotheses_satisfiable.


(* python slicing: the index arithmetic of M_Slice.py_slice (PySlice_AdjustIndices, slice length,
   copy loop) equals the direct recursive definition py_slice_spec -- bounds counted from the end
   if negative, cut to the list, then every |step|-th element of the (reversed, for a negative
   step) segment -- for all lists, all start/stop in {None} + Z and every step *)
Theorem C04_py_slice_correct : forall (l : list nat) (a b : option Z) (step : Z),
  py_slice l a b step = py_slice_spec l a b step.
Proof. exact (@py_slice_correct nat). Qed.
Print Assumptions C04_py_slice_correct.

(* the step the code uses: l[a:b:-1] is the reversed segment between the normalised bounds *)
Theorem C04_py_slice_step_m1 : forall (l : list nat) a b,
  py_slice l a b (-1) =
  rev (skipn (Z.to_nat (match b with None => (-1)%Z | Some v => norm_bwd (Z.of_nat (length l)) v end + 1))
             (firstn (Z.to_nat (match a with None => (Z.of_nat (length l) - 1)%Z | Some v => norm_bwd (Z.of_nat (length l)) v end + 1)) l)).
Proof. exact (@py_slice_step_m1 nat). Qed.
Print Assumptions C04_py_slice_step_m1.

Theorem C04_py_slice_examples :
  py_slice_spec [0;1;2;3;4;5;6] (Some (-2)%Z) (Some (-100)%Z) (-2) = [5; 3; 1]
  /\ py_slice_spec [0;1;2;3;4;5;6] (Some 1%Z) None 3 = [1; 4]
  /\ py_slice_spec [0;1;2;3;4;5;6] None (Some 2%Z) (-1) = [6; 5; 4; 3].
Proof. exact py_slice_spec_examples. Qed.
Print Assumptions C04_py_slice_examples.

(* source fact (regenerated from stackscope/_types.py on every run, fail-closed): StackSlice is a
   plain @dataclass whose fields are declared in the order (outer, inner, limit), all defaulting to
   None -- so the positional constructor StackSlice(a, b, n) means outer=a, inner=b, limit=n, which
   is the argument order of the model's ASlice / sspec in every theorem above *)
Theorem C04_stackslice_positional_order : SrcFacts.c04_stackslice_field_order = true.
Proof. reflexivity. Qed.
Print Assumptions C04_stackslice_positional_order.

(* the argument checks of extract_since / extract_until (isinstance tests; bool is an int): an
   untyped call is exactly the typed call its value selects, anything else is a TypeError raised
   before any extraction — tied by the `sincev` / `untilv` queries of the correspondence *)
Theorem C04_argument_checks : forall w i,
  (forall v, run_api w (ASinceV v) =
             match v with
             | PNone => run_api w (ASince None)
             | PFrame n => run_api w (ASince (Some n))
             | _ => ATypeError
             end)
  /\ (forall v, run_api w (AUntilV i v) =
                match v with
                | PNone => run_api w (AUntilN i None)
                | PInt z => run_api w (AUntilN i (Some z))
                | PBool b => run_api w (AUntilN i (Some (if b then 1 else 0)%Z))
                | PFrame n => run_api w (AUntilF i n)
                | POther => ATypeError
                end).
Proof. intros w i. split; intros v; destruct v; reflexivity. Qed.
Print Assumptions C04_argument_checks.
