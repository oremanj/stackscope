(* P_Greenback.v -- for every alternation depth n and every vantage point, the model of
   extract(task.coro) continues through each await_ bridge: the visible frames are exactly the
   call stack of the user's functions, and every bridging frame is hidden. *)
From Coq Require Import Lia.
Require Import Base M_Greenback.

(* the user's call stack of levels n..1; when await_ is given a non-coroutine awaitable, the
   adapt_awaitable coroutine and the awaitable's __await__ are (visible) frames on the way *)
Fixpoint ulog (awt : bool) (n : nat) : list fk :=
  match n with 0 => [] | S m => FA (S m) :: FS (S m) :: wrapl awt ++ ulog awt m end.

Definition visible (l : list (fk * bool)) : list fk := map fst (filter (fun e => negb (snd e)) l).

Definition bridging (k : fk) : bool :=
  match k with FShim | FTramp | FAwait _ | FSend | FSendE | FSwitch => true | _ => false end.

Definition marks (l : list fk) : list (fk * bool) := map (fun k => (k, hidden k)) l.

Lemma visible_marks l : visible (marks l) = filter (fun k => negb (hidden k)) l.
Proof.
  unfold visible, marks. induction l as [|k l IH]; simpl; [reflexivity|].
  destruct (hidden k); simpl; [exact IH|]. f_equal. exact IH.
Qed.

Lemma pass_step sc k rest o c e :
  elab sc k (hd_error rest) = HNone -> pass sc rest = (o, c, e) ->
  pass sc (k :: rest) = ((k, hidden k) :: o, c, e).
Proof. intros H1 H2. simpl. rewrite H1, H2. reflexivity. Qed.

Definition is_hook (k : fk) : bool := match k with FShim | FTramp | FAwait _ => true | _ => false end.

Lemma elab_next sc k k' : is_switch k' = false -> forall r, elab sc k (hd_error (k' :: r)) = HNone.
Proof.
  intros Hs r. simpl. destruct k; simpl; try reflexivity. rewrite Hs. reflexivity.
Qed.

Lemma elab_nohook sc k nx : is_hook k = false -> elab sc k nx = HNone.
Proof. destruct k; simpl; intros H; try reflexivity; discriminate. Qed.

(* a frame list without switch frames whose last frame is no hook frame: every hook sees a next
   frame and returns None *)
Lemma pass_calm sc l :
  forallb (fun k => negb (is_switch k)) l = true ->
  is_hook (last l FProbe) = false ->
  pass sc l = (marks l, None, false).
Proof.
  induction l as [|k rest IH]; intros Hs Hl; [reflexivity|].
  simpl in Hs. apply andb_true_iff in Hs as [_ Hs].
  destruct rest as [|k' r].
  - simpl in Hl. simpl. rewrite (elab_nohook sc k None Hl). reflexivity.
  - apply pass_step.
    + apply elab_next. simpl in Hs. apply andb_true_iff in Hs as [H _].
      destruct (is_switch k'); [discriminate|reflexivity].
    + apply IH; [exact Hs|]. exact Hl.
Qed.

Lemma bridging_hidden k : bridging k = true -> hidden k = true.
Proof. destruct k; simpl; intros H; try reflexivity; discriminate. Qed.

Lemma drv_cases err m : drv err m = FSend \/ drv err m = FSendE.
Proof. unfold drv. destruct (option_eqb Nat.eqb err (Some m)); auto. Qed.

Lemma up_noswitch err awt n : forallb (fun k => negb (is_switch k)) (up err awt n) = true.
Proof.
  induction n as [|m IH]; simpl; [reflexivity|].
  destruct (drv_cases err m) as [-> | ->]; destruct awt; exact IH.
Qed.

Lemma filter_up err awt n : filter (fun k => negb (hidden k)) (up err awt n) = ulog awt n.
Proof.
  induction n as [|m IH]; simpl; [reflexivity|].
  destruct (drv_cases err m) as [-> | ->]; destruct awt; simpl; simpl in IH; rewrite IH; reflexivity.
Qed.

(* seen from outside, the wrapper frames of the innermost await_ come with its coroutine *)
Lemma filter_out err awt n :
  filter (fun k => negb (hidden k)) (out err awt (S n)) ++ wrapl awt = ulog awt (S n).
Proof.
  induction n as [|m IH]; [destruct awt; reflexivity|].
  change (out err awt (S (S m))) with (seg (S (S m)) ++ drv err (S m) :: wrapl awt ++ out err awt (S m)).
  change (ulog awt (S (S m))) with (FA (S (S m)) :: FS (S (S m)) :: wrapl awt ++ ulog awt (S m)).
  rewrite <- IH.
  destruct (drv_cases err (S m)) as [-> | ->]; destruct awt; reflexivity.
Qed.

Lemma filter_nested j : filter (fun k => negb (hidden k)) (repeat FNested j) = repeat FNested j.
Proof. induction j as [|j IH]; simpl; [reflexivity|]. rewrite IH. reflexivity. Qed.

Lemma nested_noswitch j : forallb (fun k => negb (is_switch k)) (repeat FNested j) = true.
Proof. induction j as [|j IH]; simpl; [reflexivity|exact IH]. Qed.

(* the innermost await_ of a task seen from outside has no next frame and hands over its coro *)
Lemma pass_out sc err awt m :
  pass sc (out err awt (S m)) = (marks (out err awt (S m)), Some (OCoro 0), false).
Proof.
  induction m as [|m IH]; [reflexivity|].
  change (out err awt (S (S m))) with
    (FA (S (S m)) :: FS (S (S m)) :: FAwait (S (S m)) :: drv err (S m) :: wrapl awt ++ out err awt (S m)).
  apply pass_step; [reflexivity|]. apply pass_step; [reflexivity|].
  apply pass_step; [destruct (drv_cases err (S m)) as [-> | ->]; reflexivity|].
  apply pass_step; [destruct (drv_cases err (S m)) as [-> | ->]; reflexivity|].
  destruct awt; [|exact IH].
  apply pass_step; [reflexivity|]. apply pass_step; [reflexivity|]. exact IH.
Qed.

Lemma run_S f sc o acc :
  run (S f) sc o acc =
  let '(out, cont, err) := pass sc (unwrap sc o) in
  if err then GErr (acc ++ out) else
  match cont with Some o' => run f sc o' (acc ++ out) | None => GOk (acc ++ out) end.
Proof. reflexivity. Qed.

Lemma run_cont f sc o acc l o' :
  pass sc (unwrap sc o) = (marks l, Some o', false) -> run (S f) sc o acc = run f sc o' (acc ++ marks l).
Proof. intros H. rewrite run_S, H. reflexivity. Qed.

Lemma run_stop f sc o acc l :
  pass sc (unwrap sc o) = (marks l, None, false) -> run (S f) sc o acc = GOk (acc ++ marks l).
Proof. intros H. rewrite run_S, H. reflexivity. Qed.

Lemma marks_app a b : marks (a ++ b) = marks a ++ marks b.
Proof. apply map_app. Qed.

Lemma extract_marks sc l v :
  gb_extract sc = GOk (marks l) -> filter (fun k => negb (hidden k)) l = v ->
  exists r, gb_extract sc = GOk r /\ visible r = v
            /\ (forall k h, In (k, h) r -> bridging k = true -> h = true).
Proof.
  intros H <-. exists (marks l). split; [exact H|]. split; [apply visible_marks|].
  intros k h Hin Hb. apply in_map_iff in Hin as (k' & [= -> <-] & _). exact (bridging_hidden k Hb).
Qed.

(* inside the task, j greenlets below its sync code: one object, one pass *)
Definition inside_stack (awt : bool) (n j : nat) : list fk :=
  FShimCoro :: FTarget :: ulog awt n ++ [FA 0; FLeaf] ++ repeat FNested (S j) ++ [FProbe].

Lemma greenback_inside n j err aio awt :
  exists l, gb_extract {| sc_inside := true; sc_n := n; sc_j := j; sc_err := err; sc_aio := aio; sc_awt := awt |} = GOk l
            /\ visible l = inside_stack awt n j
            /\ (forall k h, In (k, h) l -> bridging k = true -> h = true).
Proof.
  set (sc := {| sc_inside := true; sc_n := n; sc_j := j; sc_err := err; sc_aio := aio; sc_awt := awt |}).
  apply (extract_marks sc
           ([FShimCoro; FShim; FTramp; drv err n; FTarget] ++ up err awt n ++ [FA 0; FLeaf] ++ repeat FNested (S j) ++ [FProbe])).
  2:{ rewrite !filter_app, filter_up, filter_nested. destruct (drv_cases err n) as [-> | ->]; reflexivity. }
  apply (run_stop 7 sc OTask []), pass_calm.
  - unfold unwrap. cbn [sc sc_inside sc_n sc_j sc_err sc_awt].
    rewrite !forallb_app, up_noswitch, nested_noswitch. destruct (drv_cases err n) as [-> | ->]; reflexivity.
  - unfold unwrap. cbn [sc sc_inside]. rewrite !app_assoc, last_last. reflexivity.
Qed.

(* outside the task (parked at level 0 in a regular await): the task's coroutine, the
   portal's child greenlet, and the coroutine the innermost frame hands over *)
Definition outside_stack (awt : bool) (n : nat) : list fk :=
  FShimCoro :: FTarget :: ulog awt n ++ [FA 0; FWait].

Lemma pass_park sc : pass sc (park sc) = (marks (park sc), None, false).
Proof. unfold park. destruct (sc_aio sc); reflexivity. Qed.

Lemma filter_park sc : filter (fun k => negb (hidden k)) (park sc) = [FA 0; FWait].
Proof. unfold park. destruct (sc_aio sc); reflexivity. Qed.

Lemma extract_three sc l1 l2 o2 l3 :
  pass sc (unwrap sc OTask) = (marks l1, Some OChild, false) ->
  pass sc (unwrap sc OChild) = (marks l2, Some o2, false) ->
  pass sc (unwrap sc o2) = (marks l3, None, false) ->
  gb_extract sc = GOk (marks (l1 ++ l2 ++ l3)).
Proof.
  intros H1 H2 H3. unfold gb_extract.
  rewrite (run_cont 7 sc OTask [] l1 OChild H1), (run_cont 6 sc OChild _ l2 o2 H2), (run_stop 5 sc o2 _ l3 H3).
  rewrite !marks_app, <- app_assoc. reflexivity.
Qed.

Lemma greenback_outside n j err aio awt :
  exists l, gb_extract {| sc_inside := false; sc_n := n; sc_j := j; sc_err := err; sc_aio := aio; sc_awt := awt |} = GOk l
            /\ visible l = outside_stack awt n
            /\ (forall k h, In (k, h) l -> bridging k = true -> h = true).
Proof.
  set (sc := {| sc_inside := false; sc_n := n; sc_j := j; sc_err := err; sc_aio := aio; sc_awt := awt |}).
  destruct n as [|m].
  - (* no await_: the trampoline hands over the task's original coroutine *)
    apply (extract_marks sc ([FShimCoro; FShim] ++ [FTramp] ++ FTarget :: park sc)).
    2:{ simpl. rewrite filter_park. reflexivity. }
    apply (extract_three sc _ _ OOrigCoro); [reflexivity|reflexivity|].
    exact (pass_step sc FTarget (park sc) _ _ _ eq_refl (pass_park sc)).
  - (* the child greenlet's frames end in the innermost await_, which hands over its coroutine *)
    apply (extract_marks sc ([FShimCoro; FShim] ++ ([FTramp; drv err (S m); FTarget] ++ out err awt (S m))
                             ++ wrapl awt ++ park sc)).
    2:{ rewrite !filter_app, filter_park. unfold outside_stack. rewrite <- (filter_out err awt m).
        destruct (drv_cases err (S m)) as [-> | ->]; destruct awt; simpl; rewrite <- ?app_assoc; reflexivity. }
    apply (extract_three sc _ _ (OCoro 0)); [reflexivity| |].
    + change (unwrap sc OChild) with (FTramp :: drv err (S m) :: FTarget :: out err awt (S m)).
      apply pass_step; [destruct (drv_cases err (S m)) as [-> | ->]; reflexivity|].
      apply pass_step; [destruct (drv_cases err (S m)) as [-> | ->]; reflexivity|].
      apply pass_step; [reflexivity|]. apply pass_out.
    + change (unwrap sc (OCoro 0)) with (wrapl awt ++ park sc). destruct awt; [|exact (pass_park sc)].
      apply pass_step; [reflexivity|]. apply pass_step; [reflexivity|]. exact (pass_park sc).
Qed.

Example greenback_example :
  visible (match gb_extract {| sc_inside := true; sc_n := 2; sc_j := 1; sc_err := Some 1; sc_aio := true; sc_awt := true |} with GOk l => l | _ => [] end)
  = [FShimCoro; FTarget; FA 2; FS 2; FAdapt; FDunder; FA 1; FS 1; FAdapt; FDunder; FA 0; FLeaf; FNested; FNested; FProbe].
Proof. reflexivity. Qed.
