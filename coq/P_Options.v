(* P_Options.v — reference semantics (lexical scoping) for C13 and the proofs relating the
   store machine M_Options.run to it, for all programs, all schedules, any number of threads. *)
Require Import Base M_Options.
From SS.gen Require Import SrcFacts.

(* the discipline under which the property is proved: options in a threading.local, restored in
   a `finally`; that the code has it is [code_thread_local] / [code_restores_in_finally] below *)
Definition good : disc := {| thread_local := true; restore_finally := true |}.

(* Reference semantics, written from the property text: options are LEXICALLY scoped.
   [cur] = options of the innermost enclosing extract of the same thread, None outside. *)

(* "extract_child(for_task=True) returns a frameless stub unless recursion was requested";
   "outside any extraction extract_child refuses to run" *)
Definition want_child (cur : option opts) (ft : bool) : cres :=
  match cur, ft with
  | None, _ => CRefuse
  | Some (_, false), true => CStub
  | Some _, _ => CFull
  end.

(* "with_contexts=False leaves every contexts empty" *)
Definition want_read (cur : option opts) : rres :=
  match cur with
  | None => RRefuse
  | Some (false, _) => REmpty
  | Some (true, _) => RCtx
  end.

(* fill_context may be used outside an extraction: its hooks then run under (True, False) *)
Definition fill_scope (cur : option opts) : option opts :=
  match cur with None => Some (true, false) | Some _ => cur end.

Fixpoint spec_obs (cur : option opts) (p : prog) : list obs :=
  match p with
  | PNil => []
  | PExt o b _ r => spec_obs (Some o) b ++ spec_obs cur r
  | PFill b _ r => spec_obs (fill_scope cur) b ++ spec_obs cur r
  | PSame b _ r => OSame (is_some cur) :: spec_obs cur b ++ spec_obs cur r
  | PChild ft r => OChild (want_child cur ft) :: spec_obs cur r
  | PRead r => ORead (want_read cur) :: spec_obs cur r
  end.

Lemma child_res_spec cur ft : child_res cur ft = want_child cur ft.
Proof. destruct cur as [[w [|]]|], ft; reflexivity. Qed.

Lemma read_res_spec cur : read_res cur = want_read cur.
Proof. destruct cur as [[[|] r]|]; reflexivity. Qed.

(* the single-thread machine: one history run alone on a private cell *)

Definition scfg := (option opts * list kent * list op * list obs)%type.

Fixpoint srun (d : disc) (n : nat) (cell : option opts) (k : list kent) (td : list op)
         (acc : list obs) : scfg :=
  match n, td with
  | S n', o :: rest =>
      let '(c', k', ob) := step_op d cell k o in srun d n' c' k' rest (add_obs ob acc)
  | _, _ => (cell, k, td, acc)
  end.

Definition srun_c (d : disc) (n : nat) (c : scfg) : scfg :=
  let '(cell, k, td, acc) := c in srun d n cell k td acc.

Lemma srun_add d a b : forall cell k td acc,
  srun d (a + b) cell k td acc = srun_c d b (srun d a cell k td acc).
Proof.
  induction a as [|a IH]; intros; simpl.
  - reflexivity.
  - destruct td as [|o rest]; simpl.
    + destruct b; reflexivity.
    + destruct (step_op d cell k o) as [[c' k'] ob]. apply IH.
Qed.

Lemma srun_nil d n cell k acc : srun d n cell k [] acc = (cell, k, [], acc).
Proof. destruct n; reflexivity. Qed.

Definition to_tstate (c : scfg) : tstate :=
  let '(_, k, td, acc) := c in {| todo := td; kstack := k; out_rev := acc |}.
Definition cell_part (c : scfg) : option opts := let '(cell, _, _, _) := c in cell.
Definition acc_part (c : scfg) : list obs := let '(_, _, _, acc) := c in acc.
Definition k_part (c : scfg) : list kent := let '(_, k, _, _) := c in k.

Definition solo (d : disc) (h : list op) (n : nat) : scfg := srun d n None [] h [].

(* projection: with a thread-local store the global run, seen from thread t, is the
   single-thread run of t's own history for as many steps as t was scheduled *)

Definition cnt (s : list nat) (t : nat) : nat := count_occ Nat.eq_dec s t.

Lemma tstate_eta ts : {| todo := todo ts; kstack := kstack ts; out_rev := out_rev ts |} = ts.
Proof. destruct ts; reflexivity. Qed.

Lemma srun_gstep d st t n : thread_local d = true ->
  srun d n (sto (gstep d st t) t) (kstack (thr (gstep d st t) t)) (todo (thr (gstep d st t) t))
       (out_rev (thr (gstep d st t) t))
  = srun d (S n) (sto st t) (kstack (thr st t)) (todo (thr st t)) (out_rev (thr st t)).
Proof.
  intros TL. unfold gstep, key. rewrite TL.
  destruct (todo (thr st t)) as [|o rest] eqn:E; simpl.
  - rewrite E. destruct n; reflexivity.
  - destruct (step_op d (sto st t) (kstack (thr st t)) o) as [[c' k'] ob]. simpl.
    unfold upd. rewrite Nat.eqb_refl. reflexivity.
Qed.

Lemma gstep_other d st u t : thread_local d = true -> u <> t ->
  sto (gstep d st u) t = sto st t /\ thr (gstep d st u) t = thr st t.
Proof.
  intros TL NE. unfold gstep, key. rewrite TL.
  destruct (todo (thr st u)) as [|o rest]; [split; reflexivity|].
  destruct (step_op d (sto st u) (kstack (thr st u)) o) as [[c' k'] ob]. simpl.
  unfold upd. assert (t =? u = false) as -> by (apply Nat.eqb_neq; auto).
  split; reflexivity.
Qed.

Lemma projection d : thread_local d = true -> forall sched st t,
  let c := srun d (cnt sched t) (sto st t) (kstack (thr st t)) (todo (thr st t)) (out_rev (thr st t)) in
  sto (run d st sched) t = cell_part c /\ thr (run d st sched) t = to_tstate c.
Proof.
  intros TL. induction sched as [|u r IH]; intros st t.
  - simpl. split; [reflexivity|]. symmetry. apply tstate_eta.
  - simpl run. unfold cnt. simpl count_occ.
    destruct (Nat.eq_dec u t) as [->|NE].
    + rewrite <- (srun_gstep d st t _ TL). apply IH.
    + specialize (IH (gstep d st u) t).
      destruct (gstep_other d st u t TL NE) as [E1 E2].
      rewrite E1, E2 in IH. exact IH.
Qed.

Lemma projection_init d : thread_local d = true -> forall hists sched t,
  let st := run d (init hists) sched in
  cell_of d st t = cell_part (solo d (nth t hists []) (cnt sched t))
  /\ thr st t = to_tstate (solo d (nth t hists []) (cnt sched t)).
Proof.
  intros TL hists sched t. unfold cell_of, key. rewrite TL.
  exact (projection d TL sched (init hists) t).
Qed.

Lemma leave_push d (RF : restore_finally d = true) e cell p k :
  step_op d cell (KPush p :: k) (leave e) = (p, k, None).
Proof. destruct e; simpl; [rewrite RF|]; reflexivity. Qed.

Lemma leave_nopush d e cell k :
  step_op d cell (KNoPush :: k) (leave e) = (cell, k, None).
Proof. destruct e; reflexivity. Qed.

(* Key lemma: a complete block leaves the cell and the control stack as it found them and
   emits exactly the lexically scoped observations. *)
Lemma block d (RF : restore_finally d = true) : forall p cell k rest acc,
  srun d (length (flatten p)) cell k (flatten p ++ rest) acc
  = (cell, k, rest, rev (spec_obs cell p) ++ acc).
Proof.
  induction p as [|o b IHb e r IHr|b IHb e r IHr|b IHb e r IHr|ft r IHr|r IHr]; intros cell k rest acc;
    [ reflexivity | | destruct cell as [c|] | |
      simpl; rewrite IHr, child_res_spec, <- app_assoc; reflexivity |
      simpl; rewrite IHr, read_res_spec, <- app_assoc; reflexivity ].
  (* left: extract, fill_context (inside / outside an extraction), extract_child -- the kinds of
     call, all alike: enter, the body (IHb), the leave, which restores the cell -- from the saved
     value if the call pushed, trivially if not --, then the rest (IHr) *)
  all: simpl flatten; simpl length; rewrite app_length; simpl app; rewrite <- app_assoc; simpl.
  all: rewrite srun_add, IHb; simpl srun_c.
  all: rewrite ?leave_nopush, ?leave_push by exact RF; simpl add_obs; rewrite IHr.
  all: simpl; rewrite ?rev_app_distr, <- ?app_assoc; reflexivity.
Qed.

Lemma srun_shape d n : forall cell k td acc,
  exists c k' l, srun d n cell k td acc = (c, k', skipn n td, l ++ acc).
Proof.
  induction n as [|n IH]; intros; [exists cell, k, []; reflexivity|].
  destruct td as [|o rest]; [exists cell, k, []; reflexivity|]. simpl.
  destruct (step_op d cell k o) as [[c' k'] ob].
  destruct (IH c' k' rest (add_obs ob acc)) as (c & k2 & l & ->).
  exists c, k2, (l ++ add_obs ob []). destruct ob; simpl; rewrite <- ?app_assoc, ?app_nil_r; reflexivity.
Qed.

Lemma solo_complete d (RF : restore_finally d = true) p n :
  length (flatten p) <= n ->
  solo d (flatten p) n = (None, [], [], rev (spec_obs None p)).
Proof.
  intros L. unfold solo.
  replace n with (length (flatten p) + (n - length (flatten p))) by lia.
  rewrite srun_add.
  pose proof (block d RF p None [] [] []) as B. rewrite !app_nil_r in B. rewrite B.
  simpl. apply srun_nil.
Qed.

(* the observations after n steps are a prefix of those of the completed run; n + (length - n)
   steps always complete it *)
Lemma solo_prefix d (RF : restore_finally d = true) p n :
  exists l, spec_obs None p = rev (acc_part (solo d (flatten p) n)) ++ l.
Proof.
  pose proof (solo_complete d RF p (n + (length (flatten p) - n)) ltac:(lia)) as C.
  unfold solo in *. rewrite srun_add in C.
  destruct (srun d n None [] (flatten p) []) as [[[c1 k1] td1] a1]. simpl in *.
  destruct (srun_shape d (length (flatten p) - n) c1 k1 td1 a1) as (c & k & l & G).
  rewrite G in C. injection C as _ _ _ C.
  exists (rev l). rewrite <- (rev_involutive (spec_obs None p)), <- C, rev_app_distr. reflexivity.
Qed.

Lemma nth_flatten progs t : nth t (map flatten progs) [] = flatten (nth t progs PNil).
Proof. change (@nil op) with (flatten PNil). apply map_nth. Qed.

Lemma noninterference d : thread_local d = true ->
  forall hists hists' sched sched' t,
    nth t hists [] = nth t hists' [] -> cnt sched t = cnt sched' t ->
    obs_of (run d (init hists) sched) t = obs_of (run d (init hists') sched') t
    /\ cell_of d (run d (init hists) sched) t = cell_of d (run d (init hists') sched') t.
Proof.
  intros TL hists hists' sched sched' t H C.
  destruct (projection_init d TL hists sched t) as [A1 A2].
  destruct (projection_init d TL hists' sched' t) as [B1 B2].
  unfold obs_of. rewrite A1, A2, B1, B2, H, C. split; reflexivity.
Qed.

Lemma obs_of_solo d : thread_local d = true -> forall hists sched t,
  obs_of (run d (init hists) sched) t = rev (acc_part (solo d (nth t hists []) (cnt sched t))).
Proof.
  intros TL hists sched t. destruct (projection_init d TL hists sched t) as [_ A2].
  unfold obs_of. rewrite A2.
  destruct (solo d (nth t hists []) (cnt sched t)) as [[[c k] td] a]. reflexivity.
Qed.

Lemma cnt_repeat n : cnt (repeat 0 n) 0 = n.
Proof. unfold cnt. induction n; simpl; [reflexivity|]. rewrite IHn. reflexivity. Qed.

Lemma equals_single_thread_run d : thread_local d = true ->
  forall hists sched t,
    obs_of (run d (init hists) sched) t
    = obs_of (run d (init [nth t hists []]) (repeat 0 (cnt sched t))) 0.
Proof.
  intros TL hists sched t. rewrite !(obs_of_solo d TL), cnt_repeat. reflexivity.
Qed.

Lemma scoped d : thread_local d = true -> restore_finally d = true ->
  forall progs sched t,
    let st := run d (init (map flatten progs)) sched in
    let p := nth t progs PNil in
    (exists l, spec_obs None p = obs_of st t ++ l)
    /\ (length (flatten p) <= cnt sched t -> obs_of st t = spec_obs None p /\ cell_of d st t = None).
Proof.
  intros TL RF progs sched t. simpl.
  rewrite (obs_of_solo d TL). rewrite nth_flatten. split.
  - apply solo_prefix; assumption.
  - intros L. destruct (projection_init d TL (map flatten progs) sched t) as [A1 _].
    rewrite A1, nth_flatten. rewrite (solo_complete d RF _ _ L). simpl.
    rewrite rev_involutive. split; reflexivity.
Qed.

Lemma restored d : thread_local d = true -> restore_finally d = true ->
  forall hists t h1 blk h2 sched1 sched2,
    nth t hists [] = h1 ++ flatten blk ++ h2 ->
    cnt sched1 t = length h1 ->
    cnt sched2 t = length h1 + length (flatten blk) ->
    cell_of d (run d (init hists) sched2) t = cell_of d (run d (init hists) sched1) t
    /\ kstack (thr (run d (init hists) sched2) t) = kstack (thr (run d (init hists) sched1) t)
    /\ todo (thr (run d (init hists) sched2) t) = h2.
Proof.
  intros TL RF hists t h1 blk h2 s1 s2 H C1 C2.
  destruct (projection_init d TL hists s1 t) as [A1 A2].
  destruct (projection_init d TL hists s2 t) as [B1 B2].
  rewrite A1, A2, B1, B2, H, C1, C2. unfold solo. rewrite srun_add.
  destruct (srun_shape d (length h1) None [] (h1 ++ flatten blk ++ h2) []) as (c1 & k1 & a1 & ->).
  rewrite skipn_app, skipn_all, Nat.sub_diag. simpl srun_c. rewrite (block d RF). simpl. auto.
Qed.

Fixpoint nest (lv : list (opts * bool)) (inner : prog) : prog :=
  match lv with
  | [] => inner
  | (o, e) :: r => PExt o (nest r inner) e PNil
  end.

Lemma spec_nest : forall lv cur o e inner,
  spec_obs cur (nest (lv ++ [(o, e)]) inner) = spec_obs (Some o) inner.
Proof.
  induction lv as [|[o' e'] r IH]; intros; simpl; rewrite ?IH; apply app_nil_r.
Qed.

Lemma finished d : thread_local d = true -> restore_finally d = true ->
  forall progs sched t, length (flatten (nth t progs PNil)) <= cnt sched t ->
    obs_of (run d (init (map flatten progs)) sched) t = spec_obs None (nth t progs PNil).
Proof. intros TL RF progs sched t L. apply (scoped d TL RF progs sched t), L. Qed.

Lemma innermost d : thread_local d = true -> restore_finally d = true ->
  forall progs sched t lv o e inner,
    nth t progs PNil = nest (lv ++ [(o, e)]) inner ->
    length (flatten (nth t progs PNil)) <= cnt sched t ->
    obs_of (run d (init (map flatten progs)) sched) t = spec_obs (Some o) inner.
Proof.
  intros TL RF progs sched t lv o e inner H L. rewrite (finished d TL RF), H by exact L. apply spec_nest.
Qed.

Lemma stub d : thread_local d = true -> restore_finally d = true ->
  forall progs sched t lv w rc e ft,
    nth t progs PNil = nest (lv ++ [((w, rc), e)]) (PChild ft PNil) ->
    length (flatten (nth t progs PNil)) <= cnt sched t ->
    obs_of (run d (init (map flatten progs)) sched) t
    = [OChild (if ft && negb rc then CStub else CFull)].
Proof.
  intros TL RF progs sched t lv w rc e ft H L.
  rewrite (innermost d TL RF _ _ _ _ _ _ _ H L). destruct rc, ft; reflexivity.
Qed.

Fixpoint papp (p q : prog) : prog :=
  match p with
  | PNil => q
  | PExt o b e r => PExt o b e (papp r q)
  | PFill b e r => PFill b e (papp r q)
  | PSame b e r => PSame b e (papp r q)
  | PChild ft r => PChild ft (papp r q)
  | PRead r => PRead (papp r q)
  end.

Lemma spec_papp cur p q : spec_obs cur (papp p q) = spec_obs cur p ++ spec_obs cur q.
Proof.
  induction p; simpl; rewrite ?IHp2, ?IHp; rewrite <- ?app_assoc; reflexivity.
Qed.

(* two programs with opposite options: on two threads that share one cell each reads the other's
   options (C13_global_store_refuted) *)
Definition wit_a : prog := PExt (true, true) (PRead (PChild true PNil)) false (PChild true PNil).
Definition wit_b : prog := PExt (false, false) (PRead (PChild true PNil)) false (PChild true PNil).

Fixpoint balanced (depth : nat) (h : list op) : bool :=
  match h with
  | [] => depth =? 0
  | Enter _ :: r | FillEnter :: r | SameEnter :: r => balanced (S depth) r
  | LeaveOk :: r | LeaveExc :: r => match depth with 0 => false | S d => balanced d r end
  | Child _ :: r | Read :: r => balanced depth r
  end.

Definition segs (l : list (bool * prog)) : list op :=
  concat (map (fun s : bool * prog => leave (fst s) :: flatten (snd s)) l).

Lemma balanced_shape : forall h d, balanced d h = true ->
  exists p0 l, length l = d /\ h = flatten p0 ++ segs l.
Proof.
  induction h as [|o r IH]; intros d B.
  - simpl in B. apply Nat.eqb_eq in B. subst. exists PNil, []. split; reflexivity.
  - assert (call : forall mk : prog -> bool -> prog -> prog,
              (forall b e q, flatten (mk b e q) = o :: flatten b ++ leave e :: flatten q) ->
              balanced (S d) r = true -> exists p0 l, length l = d /\ o :: r = flatten p0 ++ segs l).
    { (* the rest closes this call first: its first segment is the call's continuation *)
      intros mk F B'. destruct (IH _ B') as (p0 & [|[e p1] l] & L & E); [discriminate|].
      exists (mk p0 e p1), l. split; [simpl in L; lia|].
      rewrite E, F. simpl. rewrite <- !app_assoc. reflexivity. }
    destruct o as [v| | | | |ft|]; simpl in B.
    + apply (call (PExt v)); auto.
    + apply (call PFill); auto.
    + apply (call PSame); auto.
    + destruct d as [|d]; [discriminate|].
      destruct (IH _ B) as (p0 & l & L & E).
      exists PNil, ((false, p0) :: l). split; [simpl; lia|]. rewrite E. reflexivity.
    + destruct d as [|d]; [discriminate|].
      destruct (IH _ B) as (p0 & l & L & E).
      exists PNil, ((true, p0) :: l). split; [simpl; lia|]. rewrite E. reflexivity.
    + destruct (IH _ B) as (p0 & l & L & E).
      exists (PChild ft p0), l. split; [exact L|]. rewrite E. reflexivity.
    + destruct (IH _ B) as (p0 & l & L & E).
      exists (PRead p0), l. split; [exact L|]. rewrite E. reflexivity.
Qed.

Lemma balanced_tree h : balanced 0 h = true -> exists p, flatten p = h.
Proof.
  intros B. destruct (balanced_shape h 0 B) as (p0 & l & L & E).
  destruct l; [|discriminate]. exists p0. rewrite E. unfold segs. simpl. rewrite app_nil_r. reflexivity.
Qed.

Lemma flatten_balanced : forall p d r, balanced d r = true -> balanced d (flatten p ++ r) = true.
Proof.
  induction p as [|o b IHb e r0 IHr|b IHb e r0 IHr|b IHb e r0 IHr|ft r0 IHr|r0 IHr]; intros d r B; simpl;
    [exact B | | | | apply IHr, B | apply IHr, B].
  (* the three kinds of call: the body at depth + 1, then the leave brings the depth back *)
  all: rewrite <- app_assoc; apply IHb; destruct e; simpl; apply IHr, B.
Qed.

Lemma balanced_trees hists : forallb (balanced 0) hists = true -> exists progs, map flatten progs = hists.
Proof.
  induction hists as [|h r IH]; intros B.
  - exists []. reflexivity.
  - simpl in B. apply andb_true_iff in B as [B1 B2].
    destruct (balanced_tree h B1) as [p E]. destruct (IH B2) as [ps Es].
    exists (p :: ps). simpl. rewrite E, Es. reflexivity.
Qed.

Lemma nth_dec_nth : forall l u t,
  nth t (dec_nth l u) 0 = if t =? u then pred (nth t l 0) else nth t l 0.
Proof.
  induction l as [|x l IH]; intros u t.
  - assert (E : forall k, nth k (@nil nat) 0 = 0) by (destruct k; reflexivity).
    destruct u; simpl dec_nth; rewrite E; destruct (t =? _); reflexivity.
  - destruct u as [|u]; simpl.
    + destruct t; reflexivity.
    + destruct t as [|t]; [reflexivity|]. simpl. apply IH.
Qed.

Lemma length_dec_nth : forall l u, length (dec_nth l u) = length l.
Proof. induction l; destruct u; simpl; auto. Qed.

Lemma sum_dec_nth : forall l u, 0 < nth u l 0 -> list_sum l = S (list_sum (dec_nth l u)).
Proof.
  induction l as [|x l IH]; intros u H.
  - destruct u; simpl in H; lia.
  - destruct u as [|u]; simpl in *.
    + lia.
    + rewrite (IH u H). lia.
Qed.

Lemma sum_zero : forall l, (forall t, nth t l 0 = 0) -> list_sum l = 0.
Proof.
  induction l as [|x l IH]; intros H; [reflexivity|].
  simpl. rewrite (H 0 : x = 0). apply IH. intros t. exact (H (S t)).
Qed.

Lemma all_schedules_complete : forall s counts,
  (forall t, cnt s t = nth t counts 0) -> In s (all_schedules (list_sum counts) counts).
Proof.
  induction s as [|u r IH]; intros counts H.
  - rewrite sum_zero; [left; reflexivity|]. intros t. rewrite <- H. reflexivity.
  - assert (P : 0 < nth u counts 0).
    { rewrite <- H. unfold cnt. simpl. destruct (Nat.eq_dec u u); [lia|congruence]. }
    assert (U : u < length counts).
    { destruct (Nat.lt_ge_cases u (length counts)); auto. rewrite nth_overflow in P; lia. }
    rewrite (sum_dec_nth counts u P). simpl all_schedules.
    apply in_flat_map. exists u. split; [apply in_seq; lia|].
    assert (0 <? nth u counts 0 = true) as -> by (apply Nat.ltb_lt; exact P).
    apply in_map. apply IH. intros t. rewrite nth_dec_nth.
    specialize (H t). unfold cnt in *. simpl in H.
    destruct (Nat.eq_dec u t) as [->|NE].
    + rewrite Nat.eqb_refl. lia.
    + assert (t =? u = false) as -> by (apply Nat.eqb_neq; auto). exact H.
Qed.

(* The code as it is: the discipline regenerated from the source.  These two lemmas are where the
   source facts enter the theorems of C13; they stop checking as soon as ExtractOptions is no
   longer a threading.local or push no longer restores in `finally`. *)

Lemma code_thread_local : thread_local facts_disc = true.
Proof. reflexivity. Qed.
Lemma code_restores_in_finally : restore_finally facts_disc = true.
Proof. reflexivity. Qed.


(* two threads with opposite options, interleaved operation by operation *)
Definition ex_progs : list prog := [wit_a; wit_b].
Definition ex_sched : list nat := [0; 1; 0; 0; 1; 1; 0; 1; 0; 1].

Example ex_scoped :
  length (flatten (nth 0 ex_progs PNil)) <= cnt ex_sched 0
  /\ length (flatten (nth 1 ex_progs PNil)) <= cnt ex_sched 1
  /\ run_progs facts_disc ex_progs ex_sched
     = [[ORead RCtx; OChild CFull; OChild CRefuse]; [ORead REmpty; OChild CStub; OChild CRefuse]].
Proof. vm_compute. repeat split; lia. Qed.

(* restored: depth 2, inner call left by exception, other thread in the middle of its own call *)
Definition ex_blk : prog := PExt (false, false) (PRead PNil) true PNil.
Definition ex_hists : list (list op) :=
  [ [Enter (true, true); Child true] ++ flatten ex_blk ++ [Child true; LeaveOk]; flatten wit_b ].
Example ex_restored :
  nth 0 ex_hists [] = [Enter (true, true); Child true] ++ flatten ex_blk ++ [Child true; LeaveOk]
  /\ cnt [0; 1; 0; 1] 0 = 2 /\ cnt [0; 1; 0; 1; 0; 1; 0; 0] 0 = 2 + length (flatten ex_blk)
  /\ cell_of facts_disc (run facts_disc (init ex_hists) [0; 1; 0; 1; 0; 1; 0; 0]) 0 = Some (true, true)
  /\ cell_of facts_disc (run facts_disc (init ex_hists) [0; 1; 0; 1; 0; 1; 0]) 0 = Some (false, false).
Proof. vm_compute. repeat split. Qed.

(* stub at depth 3 under (with_contexts, recurse) = (_, false), outer levels say recurse = true *)
Example ex_stub :
  let p := nest ([((true, true), false); ((false, true), true)] ++ [((true, false), false)]) (PChild true PNil) in
  length (flatten p) <= cnt [1; 0; 0; 1; 0; 0; 0; 1; 0; 0; 1; 1] 0
  /\ run_progs facts_disc [p; wit_a] [1; 0; 0; 1; 0; 0; 0; 1; 0; 0; 1; 1]
     = [[OChild CStub]; [ORead RCtx; OChild CFull; OChild CRefuse]].
Proof. vm_compute. split; [lia|reflexivity]. Qed.

Example ex_refuses :
  let p := papp (PExt (true, true) (PChild true PNil) true PNil) (PChild true (PFill (PChild true PNil) false PNil)) in
  length (flatten p) <= cnt [0; 0; 0; 0; 0; 0; 0] 0
  /\ run_progs facts_disc [p] [0; 0; 0; 0; 0; 0; 0] = [[OChild CFull; OChild CRefuse; OChild CStub]].
Proof. vm_compute. split; [lia|reflexivity]. Qed.

Example ex_balanced :
  forallb (balanced 0) ex_hists = true
  /\ balanced 0 [Enter (true, true); FillEnter; Child true; LeaveExc; SameEnter; Read; LeaveOk; LeaveOk; Child false] = true
  /\ balanced 0 [Enter (true, true); LeaveOk; LeaveOk] = false.
Proof. vm_compute. repeat split. Qed.

Example ex_schedules :
  length (schedules_of ex_progs) = 252
  /\ existsb (list_eqb Nat.eqb ex_sched) (schedules_of ex_progs) = true
  /\ (forall t, t < 2 -> cnt ex_sched t = length (flatten (nth t ex_progs PNil))).
Proof. repeat split; try (vm_compute; reflexivity). intros [|[|t]] H; try reflexivity. lia. Qed.
