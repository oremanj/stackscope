(* P_Greenlet.v -- reference statements per lifecycle state and proofs about M_Greenlet. *)
From Coq Require Import ZArith String Lia.
Require Import Base M_Slice P_Slice M_Greenlet.

Lemma walk_to_notin stop cur rest d :
  (forall x, stop = Some x -> ~ In x rest) -> walk_to stop cur rest = last (cur :: rest) d.
Proof.
  revert cur. induction rest as [|y r IH]; intros cur H; [reflexivity|].
  change (last (cur :: y :: r) d) with (last (y :: r) d). simpl walk_to.
  assert (H' : forall x, stop = Some x -> ~ In x r) by (intros x Hx HI; apply (H x Hx); right; exact HI).
  destruct stop as [s|]; simpl; [|exact (IH y H')].
  destruct (Nat.eqb_spec y s) as [->|_]; [|exact (IH y H')].
  destruct (H s eq_refl). left. reflexivity.
Qed.

Lemma hd_tl {A} (l : list A) x : hd_error l = Some x -> x :: tl l = l.
Proof. destruct l; simpl; [discriminate|]. intros [= ->]. reflexivity. Qed.

Lemma take_until_last l d : NoDup l -> l <> [] -> take_until (last l d) l = Some l.
Proof.
  intros ND Hne. destruct (exists_last Hne) as (q & x & ->). rewrite last_last.
  apply take_until_split. exact (proj1 (NoDup_mid _ _ _ ND)).
Qed.

Lemma is_nil_rev {A} (l : list A) : is_nil (rev l) = is_nil l.
Proof.
  destruct l as [|x l]; simpl; [reflexivity|].
  destruct (rev l ++ [x]) eqn:E; [destruct (app_cons_not_nil _ _ _ (eq_sym E))|reflexivity].
Qed.

Lemma suspended_foreign w g fr :
  g_frame g = Some fr ->
  NoDup (chain_from w fr) -> hd_error (chain_from w fr) = Some fr ->
  ~ In fr (thread_frames w) ->
  (has_parent w = true -> true_caller w <> None) ->
  unwrap_greenlet w g = GSlice (SFrames (rev (chain_from w fr))).
Proof.
  intros Hf ND Hhd Hnot Htc. unfold unwrap_greenlet. rewrite Hf.
  rewrite (walk_to_notin None fr _ fr) by discriminate. rewrite (hd_tl _ _ Hhd).
  assert (Hne : chain_from w fr <> []) by (intros E; rewrite E in Hhd; discriminate).
  rewrite (unwrap_stackslice_walk w _ (Some fr) None fr Htc eq_refl
             (greenlet_branch_inner_notin w _ fr Hnot)).
  unfold try_chain. rewrite (take_until_last _ fr ND Hne).
  rewrite slice_finish_frames; [reflexivity| |exact I].
  rewrite is_nil_rev. destruct (chain_from w fr); [congruence|reflexivity].
Qed.

Lemma current_own w g tc :
  wf w -> g_frame g = None -> g_active g = true -> g_current g = true ->
  true_caller w = Some tc ->
  (forall x, g_parent g = Some (Some x) -> ~ In x (caller_chain w)) ->
  (g_parent g = None -> w_parents w = []) ->
  unwrap_greenlet w g = GSlice (SFrames (rev (caller_chain w))).
Proof.
  intros Hwf Hf Ha Hc Htc Hpar Hmain. unfold unwrap_greenlet. rewrite Hf, Ha, Hc, Htc. simpl negb. cbv iota.
  assert (Htcnz : true_caller w <> None) by congruence.
  assert (Hne : caller_chain w <> []) by (intros E; unfold true_caller in Htc; rewrite E in Htc; discriminate).
  rewrite (chain_from_caller w tc Hwf Htc). f_equal.
  (* own chain first, the parents' chains after it *)
  apply (slice_exact_seg w _ _ None [] (caller_chain w) (concat (w_parents w)) Hwf Htcnz); [|exact Hne|exact I].
  split; [reflexivity|]. split; [exists (tl (caller_chain w)); symmetry; exact (hd_tl _ _ Htc)|].
  destruct (g_parent g) as [pf|] eqn:Ep; [|rewrite (Hmain eq_refl); reflexivity].
  (* the walk towards the parent's frame stops at the outermost frame of the own chain *)
  rewrite (walk_to_notin pf tc _ tc), (hd_tl _ _ Htc).
  - exists (removelast (caller_chain w)). exact (app_removelast_last tc Hne).
  - intros x -> HI. apply (Hpar x eq_refl). destruct (caller_chain w); [destruct HI|right; exact HI].
Qed.

(* from well-formedness alone: the two hypotheses of suspended_ancestor, for a parent's chain *)
Lemma parent_chain_from w p fr :
  wf w -> In p (w_parents w) -> hd_error p = Some fr -> chain_from w fr = p.
Proof.
  intros ND Hin Hhd. rewrite <- (hd_tl _ _ Hhd) in Hin |- *. apply (find_chain_in _ [] fr (tl p) ND).
  right. apply in_or_app. left. exact Hin.
Qed.

Lemma parent_segment w p :
  In p (w_parents w) -> exists A B, thread_frames w = A ++ p ++ B.
Proof.
  intros Hin. destruct (in_split _ _ Hin) as [l1 [l2 E]].
  exists (caller_chain w ++ concat l1), (concat l2).
  unfold thread_frames. rewrite E. rewrite concat_app. simpl. rewrite <- !app_assoc. reflexivity.
Qed.

Lemma suspended_ancestor w g fr A p B :
  wf w -> true_caller w <> None ->
  g_frame g = Some fr -> chain_from w fr = p -> hd_error p = Some fr ->
  thread_frames w = A ++ p ++ B ->
  unwrap_greenlet w g = GSlice (SFrames (rev p)).
Proof.
  intros Hwf Htc Hf Hch Hhd HT. unfold unwrap_greenlet. rewrite Hf, Hch.
  rewrite (walk_to_notin None fr _ fr) by discriminate. rewrite (hd_tl _ _ Hhd).
  f_equal. exact (slice_segment w A p B fr Hwf Htc HT Hhd).
Qed.

(* non-trivial instance: greenlet tree main > g1 > g2 (asker, running); g1 is asked from its child
   g2; a parked sibling [21;20]; the answers are the greenlets' own frames *)
Definition wg : world :=
  {| w_cur := [Build_cframe 50 "stackscope._glue" false; Build_cframe 51 "functools" true;
               Build_cframe 52 "stackscope._extract" false; Build_cframe 6 "app" false; Build_cframe 5 "app" false];
     w_parents := [[4; 3]; [2; 1; 0]];
     w_threads := [(true, [])]; w_chains := [[21; 20]] |}.

Example wg_examples :
  wf wg
  /\ unwrap_greenlet wg {| g_frame := Some 4; g_active := true; g_current := false; g_parent := Some (Some 2) |}
     = GSlice (SFrames [3; 4])
  /\ unwrap_greenlet wg {| g_frame := Some 21; g_active := true; g_current := false; g_parent := Some (Some 2) |}
     = GSlice (SFrames [20; 21])
  /\ unwrap_greenlet wg {| g_frame := None; g_active := true; g_current := true; g_parent := Some (Some 4) |}
     = GSlice (SFrames [5; 6])
  /\ thread_frames wg = [6; 5] ++ [4; 3] ++ [2; 1; 0] /\ chain_from wg 4 = [4; 3].
Proof.
  split; [apply NoDup_by_nodup; reflexivity|]. repeat split; vm_compute; reflexivity.
Qed.
