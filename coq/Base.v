(* Base.v — small executable helpers shared by all models (stdlib only), followed by the facts
   about them and about lists that several proof files use. *)
From Coq Require Export List Arith Bool Lia.
Export ListNotations.

Fixpoint list_eqb {A} (eq : A -> A -> bool) (a b : list A) : bool :=
  match a, b with
  | [], [] => true
  | x :: a', y :: b' => eq x y && list_eqb eq a' b'
  | _, _ => false
  end.

Definition option_eqb {A} (eq : A -> A -> bool) (a b : option A) : bool :=
  match a, b with
  | None, None => true
  | Some x, Some y => eq x y
  | _, _ => false
  end.

Definition pair_eqb {A B} (ea : A -> A -> bool) (eb : B -> B -> bool) (a b : A * B) : bool :=
  ea (fst a) (fst b) && eb (snd a) (snd b).

Lemma list_eqb_eq {A} (eq : A -> A -> bool) (H : forall x y, eq x y = true -> x = y) a b :
  list_eqb eq a b = true -> a = b.
Proof.
  revert b; induction a as [|x a IH]; destruct b as [|y b]; simpl; try discriminate; auto.
  intros E. apply andb_true_iff in E as [E1 E2]. f_equal; auto.
Qed.

Lemma list_eqb_refl {A} (eq : A -> A -> bool) (H : forall x, eq x x = true) a :
  list_eqb eq a a = true.
Proof. induction a as [|x a IH]; simpl; auto. rewrite H, IH. reflexivity. Qed.

Lemma option_eqb_eq {A} (eq : A -> A -> bool) (H : forall x y, eq x y = true -> x = y) a b :
  option_eqb eq a b = true -> a = b.
Proof. destruct a, b; simpl; try discriminate; auto. intros E. f_equal; auto. Qed.

Fixpoint lookup {A} (d : A) (l : list (nat * A)) (k : nat) : A :=
  match l with
  | [] => d
  | (k', v) :: r => if k =? k' then v else lookup d r k
  end.

Fixpoint somes {A} (l : list (option A)) : list A :=
  match l with
  | [] => []
  | Some x :: r => x :: somes r
  | None :: r => somes r
  end.

Fixpoint false_indices (n : nat) (l : list bool) : list nat :=
  match l with
  | [] => []
  | b :: r => (if b then [] else [n]) ++ false_indices (S n) r
  end.

Definition count_true (l : list bool) : nat := length (filter (fun b => b) l).

Definition last_opt {A} (l : list A) : option A :=
  match rev l with x :: _ => Some x | [] => None end.

Definition mem_nat (x : nat) (l : list nat) : bool := existsb (Nat.eqb x) l.

(* a proof for every element gives [Forall]; [f] stays outside the [fix], so that, as with [map],
   it may be the recursive call of an enclosing Fixpoint over a type nested in [list] *)
Definition Forall_all {A} {P : A -> Prop} (f : forall x, P x) : forall l, Forall P l :=
  fix go l := match l with [] => Forall_nil P | x :: r => Forall_cons x (f x) (go r) end.

Lemma nat_eqb_true x y : (x =? y) = true -> x = y.
Proof. apply Nat.eqb_eq. Qed.

Lemma mem_nat_In x l : mem_nat x l = true <-> In x l.
Proof.
  unfold mem_nat. rewrite existsb_exists. split.
  - intros (y & H & E). apply nat_eqb_true in E. subst. exact H.
  - intros H. exists x. split; [exact H|apply Nat.eqb_refl].
Qed.

Lemma mem_nat_false x l : mem_nat x l = false <-> ~ In x l.
Proof. rewrite <- mem_nat_In. destruct (mem_nat x l); split; congruence. Qed.

Lemma last_opt_Some {A} (l : list A) x : last_opt l = Some x -> l = removelast l ++ [x].
Proof.
  unfold last_opt. destruct (rev l) as [|y r] eqn:E; [discriminate|]. intros [= ->].
  rewrite <- (rev_involutive l), E. symmetry. apply (f_equal (fun p => p ++ [x])), removelast_last.
Qed.

Lemma last_opt_None {A} (l : list A) : last_opt l = None -> l = [].
Proof.
  unfold last_opt. destruct (rev l) eqn:E; [intros _|discriminate].
  rewrite <- (rev_involutive l), E. reflexivity.
Qed.

Lemma somes_map {A B} (g : A -> B) l : somes (map (fun x => Some (g x)) l) = map g l.
Proof. induction l as [|x l IH]; [reflexivity|]. cbn [map somes]. rewrite IH. reflexivity. Qed.
