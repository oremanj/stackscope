(* C11 — context hooks: elaborate, unwrap, re-elaborate until a steady state.
   About the model M_Contexts.fill that the correspondence (harness/c11.py) evaluates against the
   real fill_context. *)
Require Import Base M_Contexts P_Contexts.
From SS.gen Require Import SrcFacts.

(* facts regenerated from /repo's source on every run *)
Theorem C11_guard_constant : SrcFacts.context_guard = 100.
Proof. exact eq_refl. Qed.
Print Assumptions C11_guard_constant.

Theorem C11_push_restores : SrcFacts.push_restores_in_finally = true.
Proof. exact eq_refl. Qed.
Print Assumptions C11_push_restores.

(* the model computes exactly the outcome and hook-call log of the reference relation [Ref]
   (forward reachability of loop iterations + one final rule per clause of the property),
   for all hook tables, options and initial contexts; the reference is deterministic *)
Theorem C11_model_eq_ref : forall cf o c x l,
  fst (fill cf o c) = (x, l) <-> Ref cf (opts_in o) c x l.
Proof. exact fill_ref. Qed.
Print Assumptions C11_model_eq_ref.

(* at most one outcome and log per initial Context *)
Theorem C11_ref_deterministic : forall cf o c x l x' l',
  Ref cf o c x l -> Ref cf o c x' l' -> x = x' /\ l = l'.
Proof. exact Ref_fun. Qed.
Print Assumptions C11_ref_deterministic.

(* hook-call sequence = elab o0, unwrap o0', elab o1, unwrap o1', ... computed from the tables
   alone, up to the first None / PRUNE / raise (or the extra unwrap when the guard runs out) *)
Theorem C11_trace : forall cf o c,
  syn_only cf -> snd (fst (fill cf o c)) = trace cf (opts_in o) (guard cf) (obj c).
Proof. intros cf o c S. rewrite fill_loopF. apply trace_spec, S. Qed.
Print Assumptions C11_trace.

(* tables whose elaborations neither overwrite obj nor raise: elab o0, unwrap o0, elab o1, ... *)
Theorem C11_trace_plain : forall cf o c,
  syn_only cf -> plain cf -> snd (fst (fill cf o c)) = ptrace cf (opts_in o) (guard cf) (obj c).
Proof. intros cf o c S P. rewrite C11_trace by exact S. apply trace_plain, P. Qed.
Print Assumptions C11_trace_plain.

(* final Context = what the LAST elaboration produced from a context whose obj is the last
   manager and whose inner_stack/children were reset; hide set iff the chain ended in PRUNE *)
Theorem C11_result : forall cf o c0 c' log o',
  fill cf o c0 = (Done c', log, o') ->
  exists k start logk c1 l1 r l2,
    Iter cf (opts_in o) c0 k start logk
    /\ k < guard cf
    /\ (k = 0 -> start = c0)
    /\ (k > 0 -> inner start = None /\ children start = [])
    /\ elab1 cf (opts_in o) start = (c1, l1, false)
    /\ unwrap1 cf (opts_in o) c1 = (r, l2, None)
    /\ log = logk ++ l1 ++ l2
    /\ ((r = UNone /\ c' = c1) \/ (is_prune cf r = true /\ c' = set_hidden c1))
    /\ hidden c1 = hidden c0.
Proof.
  intros cf o c0 c' log o' F.
  assert (R : Ref cf (opts_in o) c0 (Done c') log) by (apply fill_ref; rewrite F; reflexivity).
  inversion R as [| |k ck lk c1 l1 l2 HI LT EE EU|k ck lk c1 l1 r l2 HI LT EE EU PR| |]; subst;
    destruct (Iter_start _ _ _ _ _ _ _ _ _ HI EE) as (Z & P & HK).
  - exists k, ck, lk, c', l1, UNone, l2. repeat split; auto; apply P; auto.
  - exists k, ck, lk, c1, l1, r, l2. repeat split; auto; apply P; auto.
Qed.
Print Assumptions C11_result.

(* the obj of a context about to be re-elaborated is the manager the previous unwrap_context
   returned (and that manager does not compare equal to PRUNE) *)
Theorem C11_result_last_manager : forall cf o c0 k ck log,
  Iter cf o c0 (S k) ck log ->
  exists cprev lp, unwrap1 cf o cprev = (UTo (obj ck), lp, None) /\ eqprune (mattrs cf (obj ck)) = false.
Proof. inversion 1; subst; eauto. Qed.
Print Assumptions C11_result_last_manager.

(* where no manager compares equal to PRUNE: the loop ends with unwrap_context returning None or
   PRUNE, and hide is set by PRUNE only (a Context hidden on entry stays hidden) *)
Theorem C11_hidden_iff_prune : forall cf o c0 c' log o',
  no_eqprune cf -> fill cf o c0 = (Done c', log, o') ->
  exists c1 r l2, unwrap1 cf (opts_in o) c1 = (r, l2, None) /\ (r = UNone \/ r = UPrune)
    /\ hidden c' = (hidden c0 || match r with UPrune => true | _ => false end).
Proof.
  intros cf o c0 c' log o' NE F.
  destruct (C11_result _ _ _ _ _ _ F) as (k & st & lk & c1 & l1 & r & l2 & _ & _ & _ & _ & _ & EU & _ & D & <-).
  exists c1, r, l2. split; [exact EU|].
  destruct D as [(-> & ->)|(PR & ->)]; [rewrite orb_false_r; auto|].
  destruct r as [| |t|]; simpl in PR; rewrite ?NE in PR; try discriminate PR.
  rewrite orb_true_r. auto.
Qed.
Print Assumptions C11_hidden_iff_prune.

(* the naive reading fails for a manager that compares equal to (): it is taken for PRUNE *)
Theorem C11_eqprune_refuted :
  exists cf c m c', unwrapt cf (obj c) = UTo m /\ fst (fst (fill cf None c)) = Done c'
                    /\ obj c' <> m /\ hidden c' = true.
Proof. exists eq_cfg, (fresh 0), 1, (set_hidden (fresh 0)). vm_compute. repeat split; auto; discriminate. Qed.
Print Assumptions C11_eqprune_refuted.

(* cycles: an error, never a hang.  At most 2*100+1 user hook calls for any table *)
Theorem C11_cycle_bound : forall cf o c,
  guard cf = SrcFacts.context_guard -> length (snd (fst (fill cf o c))) <= 201.
Proof.
  intros cf o c G. rewrite fill_loopF. eapply Nat.le_trans; [apply loopF_log|]. rewrite G. apply Nat.le_refl.
Qed.
Print Assumptions C11_cycle_bound.

(* the "unwrapped more than N times" RuntimeError is raised exactly when N = 100 unwrap steps
   succeeded *)
Theorem C11_cycle_iff : forall cf o c x l,
  fst (fill cf o c) = (x, l) ->
  ((exists ck r, x = RaisedLoop ck r) <->
   (exists ck log r l2, Iter cf (opts_in o) c (guard cf) ck log /\ unwrap1 cf (opts_in o) ck = (r, l2, None))).
Proof.
  intros cf o c x l F. apply fill_ref in F. split.
  - intros (ck & r & ->). inversion F; subst. do 4 eexists; split; eassumption.
  - intros (ck & log & r & l2 & HI & EU).
    destruct (Ref_fun _ _ _ _ _ _ _ F (RefLoop _ _ _ _ _ _ _ HI EU)); subst. eauto.
Qed.
Print Assumptions C11_cycle_iff.

(* tables in which every manager unwraps to a manager (self-, 2-, n-cycles) always end in that
   error *)
Theorem C11_cycle : forall cf o c,
  endless cf -> exists ck r, fst (fst (fill cf o c)) = RaisedLoop ck r.
Proof. intros cf o c E. rewrite fill_loopF. apply endless_raises, E. Qed.
Print Assumptions C11_cycle.

(* fill_context outside any extract = inside extract(with_contexts=True,
   recurse_child_tasks=False); options unset again afterwards (also after an error) *)
Theorem C11_outside_eq_inside : forall cf c,
  restores cf = SrcFacts.push_restores_in_finally ->
  fst (fill cf None c) = fst (fill cf (Some (true, false)) c)
  /\ snd (fill cf None c) = None
  /\ snd (fill cf (Some (true, false)) c) = Some (true, false).
Proof. intros cf c R. rewrite !fill_loopF. simpl. rewrite R. auto. Qed.
Print Assumptions C11_outside_eq_inside.

(* every user hook call runs under the options in force for this fill_context *)
Theorem C11_hooks_see_options : forall cf o c,
  Forall (fun e => ev_opts e = opts_in o) (snd (fst (fill cf o c))).
Proof. intros cf o c. rewrite fill_loopF. apply loopF_log. Qed.
Print Assumptions C11_hooks_see_options.

(* generator-based managers: under with_contexts=True the exiting and the non-exiting lookup
   path call the registered hook with the same frame carrying the same contexts, so the verdict
   (also of a hook that answers `frame.contexts[0].obj`) does not depend on the path *)
Theorem C11_gcm_paths : forall cf o c,
  gcm (mattrs cf (obj c)) = true -> inner c = None -> wc_of o = true ->
  let m := obj c in
  let c1 := fst (fst (elab1 cf o c)) in
  snd (elab1 cf o c) = false /\ snd (fst (elab1 cf o c)) = [] /\ obj c1 = m
  /\ inner c1 = (if exiting c then None
                 else Some (map (fun f => (f, fctx cf f)) (gframes (mattrs cf m))))
  /\ children c1 = children c
  /\ fst (fst (unwrap1 cf o c1)) =
     match greg cf (code (mattrs cf m)), gframes (mattrs cf m) with
     | Some _, f :: _ =>
         match greg cf (fcode cf f) with
         | Some r => gverdict cf (fcode cf f) (fctx cf f) r
         | None => UNone
         end
     | _, _ => UNone
     end
  /\ Forall (fun e => match e with VGen _ f _ cx _ => cx = fctx cf f | _ => True end)
            (snd (fst (unwrap1 cf o c1))).
Proof.
  intros cf o c G IN W. unfold elab1, elab_step, unwrap1, unwrap_step. rewrite G. simpl.
  unfold gcm_elab. rewrite W. destruct (exiting c) eqn:X; simpl; rewrite ?G; repeat split; auto.
  all: unfold gcm_unwrap; simpl; rewrite ?IN; destruct (greg cf (code (mattrs cf (obj c)))); auto;
    destruct (gframes (mattrs cf (obj c))) as [|f fr]; simpl; auto;
    unfold gen_hook; simpl; destruct (greg cf (fcode cf f)); simpl; auto.
Qed.
Print Assumptions C11_gcm_paths.

(* the hypothesis with_contexts=True is needed: inside extract(with_contexts=False) only the
   exiting path (extract_outermost) analyses contexts, and a hook answering from
   frame.contexts unwraps the manager when exiting but not otherwise *)
Theorem C11_gcm_paths_need_contexts :
  exists cf c, gcm (mattrs cf (obj c)) = true /\ inner c = None /\
    fst (fst (fill cf (Some (false, false)) c))
    <> match fst (fst (fill cf (Some (false, false)) (mkctx (obj c) None [] false None true))) with
       | Done c' => Done (mkctx (obj c') (inner c') (children c') (hidden c') (descr c') false)
       | x => x
       end
    /\ (forall c', fst (fst (fill cf (Some (false, false)) c)) = Done c' -> obj c' = obj c).
Proof.
  exists ex_with, (fresh 0). repeat split; try reflexivity.
  - vm_compute. discriminate.
  - vm_compute. intros c' E. inversion E. reflexivity.
Qed.
Print Assumptions C11_gcm_paths_need_contexts.

(* several contexts in one frame (extract_iter's per-context try/except): every context comes
   out exactly as fill_context gives it in isolation, whatever happened to earlier ones; the
   frame's errors are the failures in order; the hook calls are the concatenation *)
Theorem C11_frame_isolated : forall cf rc cs,
  frame_fill cf rc cs =
  (map (iso_ctx cf (Some (true, rc))) cs, somes (map (iso_err cf (Some (true, rc))) cs),
   concat (map (iso_log cf (Some (true, rc))) cs)).
Proof. intros cf rc cs. unfold frame_fill. rewrite frame_loop_spec. reflexivity. Qed.
Print Assumptions C11_frame_isolated.

(* ... in particular the i-th context of the frame *)
Theorem C11_frame_nth : forall cf rc cs i c,
  nth_error cs i = Some c ->
  nth_error (fst (fst (frame_fill cf rc cs))) i = Some (iso_ctx cf (Some (true, rc)) c).
Proof. intros cf rc cs i c H. rewrite C11_frame_isolated. apply map_nth_error, H. Qed.
Print Assumptions C11_frame_nth.

(* histories: the verdict on a step is independent of the steps before it (each step is
   evaluated against the hook tables in force at that time, nothing else is remembered) *)
Theorem C11_history_stateless : forall a b, hcase_ok (a ++ b) = hcase_ok a && hcase_ok b.
Proof. intros a b. apply forallb_app. Qed.
Print Assumptions C11_history_stateless.
