(* P_Targets.v — proofs for C08: the decompiler model inverts the compiler model on every
   supported target (with any instruction suffix), returns None on every modelled unsupported
   form, and never runs out of fuel. *)
From Coq Require Import String Ascii.
Require Import Base M_Targets.
Open Scope string_scope.
Open Scope list_scope.

Section ExprInd.
  Variable P : expr -> Prop.
  Hypothesis HName : forall k s, P (EName k s).
  Hypothesis HConst : forall r, P (EConst r).
  Hypothesis HAttr : forall e a, P e -> P (EAttr e a).
  Hypothesis HSub : forall e i, P e -> P i -> P (ESubscr e i).
  Hypothesis HSlice : forall e lo hi, P e -> P lo -> P hi -> P (ESlice e lo hi).
  Hypothesis HCall : forall f args, P f -> Forall P args -> P (ECall f args).
  Hypothesis HMCall : forall o m args, P o -> Forall P args -> P (EMCall o m args).
  Hypothesis HOp : forall tag subs, Forall P subs -> P (EOp tag subs).
  Hypothesis HWalrus : forall k s e, P e -> P (EWalrus k s e).
  Hypothesis HCallX : forall tag f args, P f -> Forall P args -> P (ECallX tag f args).

  Fixpoint expr_ind2 (e : expr) : P e :=
    let go := Forall_all expr_ind2 in
    match e with
    | EName k s => HName k s
    | EConst r => HConst r
    | EAttr e a => HAttr e a (expr_ind2 e)
    | ESubscr e i => HSub e i (expr_ind2 e) (expr_ind2 i)
    | ESlice e lo hi => HSlice e lo hi (expr_ind2 e) (expr_ind2 lo) (expr_ind2 hi)
    | ECall f args => HCall f args (expr_ind2 f) (go args)
    | EMCall o m args => HMCall o m args (expr_ind2 o) (go args)
    | EOp tag subs => HOp tag subs (go subs)
    | EWalrus k s e => HWalrus k s e (expr_ind2 e)
    | ECallX tag f args => HCallX tag f args (expr_ind2 f) (go args)
    end.
End ExprInd.

Section TargetInd.
  Variable P : target -> Prop.
  Hypothesis HName : forall k s, P (TName k s).
  Hypothesis HAttr : forall e a, P (TAttr e a).
  Hypothesis HSub : forall e i, P (TSubscr e i).
  Hypothesis HSlice : forall e lo hi, P (TSlice e lo hi).
  Hypothesis HTuple : forall ts, Forall P ts -> P (TTuple ts).
  Hypothesis HStar : forall b s a, Forall P b -> P s -> Forall P a -> P (TStar b s a).

  Fixpoint target_ind2 (t : target) : P t :=
    let go := Forall_all target_ind2 in
    match t with
    | TName k s => HName k s
    | TAttr e a => HAttr e a
    | TSubscr e i => HSub e i
    | TSlice e lo hi => HSlice e lo hi
    | TTuple ts => HTuple ts (go ts)
    | TStar b s a => HStar b s a (go b) (target_ind2 s) (go a)
    end.
End TargetInd.

Lemma sapp_assoc : forall a b c, (a @@ b) @@ c = a @@ (b @@ c).
Proof. induction a as [|ch a IH]; intros; simpl; [reflexivity | rewrite IH; reflexivity]. Qed.

Lemma num_start_spec : forall s, num_start s = starts_numeric s.
Proof.
  intros [|c s]; [reflexivity|].
  (* both look at the first character only: compared on the 256 of them *)
  destruct c as [[] [] [] [] [] [] [] []]; vm_compute; reflexivity.
Qed.

Lemma attr_obj_primary : forall s, attr_obj s = primary s.
Proof. intros. unfold attr_obj, primary. rewrite num_start_spec. reflexivity. Qed.

Lemma join_commas : forall l, join ", " l = commas l.
Proof.
  induction l as [|x r IH]; simpl; auto.
  destruct r; auto. rewrite IH. reflexivity.
Qed.

Lemma format_paren : forall l, format_tuple l = paren_tuple l.
Proof.
  intros [|x [|y r]]; try reflexivity.
  unfold format_tuple, paren_tuple. rewrite join_commas. reflexivity.
Qed.

Lemma app_length_plus : forall {A} (a b : list A) n,
  List.length (a ++ b) + n = List.length a + (List.length b + n).
Proof. intros. rewrite app_length. lia. Qed.

Lemma le_plus : forall a n, a <= n -> exists k, n = a + k.
Proof. intros a n H. exists (n - a). lia. Qed.

Lemma nt_S : forall f ins st, nt (S f) ins st =
  match ins with
  | [] => Err
  | i :: rest => nt (S f) (i :: rest) st
  end.
Proof. intros f [|i r] st; reflexivity. Qed.

Lemma nt_load : forall f k s rest st, nt (S f) (ILoad k s :: rest) st = nt f rest (s :: st).
Proof. reflexivity. Qed.
Lemma nt_const : forall f r rest st, nt (S f) (ILoadConst r :: rest) st = nt f rest (r :: st).
Proof. reflexivity. Qed.
Lemma nt_nop : forall f k rest st, nt (S f) (INop k :: rest) st = nt f rest st.
Proof. reflexivity. Qed.
Lemma nt_ext_arg : forall f rest st, nt (S f) (IExtArg :: rest) st = nt f rest st.
Proof. reflexivity. Qed.
Lemma nt_other : forall f t rest st, nt (S f) (IOther t :: rest) st = Err.
Proof. reflexivity. Qed.
Lemma nt_unpack_seq : forall f n rest st, nt (S f) (IUnpackSeq n :: rest) st =
  match nts f n rest with
  | Ok (vals, rest') => finish (format_tuple vals :: st) rest'
  | Err => Err | Fuel => Fuel
  end.
Proof. reflexivity. Qed.
Lemma nt_unpack_ex : forall f b a rest st, nt (S f) (IUnpackEx b a :: rest) st =
  match nts f b rest with
  | Ok (before, r1) =>
    match nts f 1 r1 with
    | Ok (star, r2) =>
      match nts f a r2 with
      | Ok (after, r3) => finish (format_tuple (before ++ map (fun s => "*" @@ s) star ++ after) :: st) r3
      | Err => Err | Fuel => Fuel
      end
    | Err => Err | Fuel => Fuel
    end
  | Err => Err | Fuel => Fuel
  end.
Proof. reflexivity. Qed.
Lemma nts_S : forall f n ins, nts (S f) (S n) ins =
  match nt f ins [] with
  | Ok (v, r) => match nts f n r with Ok (vs, r') => Ok (v :: vs, r') | Err => Err | Fuel => Fuel end
  | Err => Err | Fuel => Fuel
  end.
Proof. reflexivity. Qed.

(* push_null only adds a no-op or retags a load: the decompiler cannot tell *)
Lemma nt_push_null : forall c fuel rest st,
  nt (List.length (push_null c) + fuel) (push_null c ++ rest) st = nt (List.length c + fuel) (c ++ rest) st.
Proof.
  intros c fuel rest st.
  destruct c as [|i r]; [reflexivity|].
  destruct i; try reflexivity.
  destruct k; reflexivity.
Qed.

Lemma nt_call : forall f fn args st rest,
  nt (S f) (ICall (List.length args) :: rest) (rev args ++ fn :: st) =
  nt f rest ((fn @@ "(" @@ commas args @@ ")") :: st).
Proof.
  intros. simpl.
  assert (L : List.length (rev args ++ fn :: st) = List.length args + S (List.length st)).
  { rewrite app_length, rev_length. reflexivity. }
  destruct (Nat.ltb (List.length (rev args ++ fn :: st)) (S (List.length args))) eqn:E.
  { apply Nat.ltb_lt in E. lia. }
  assert (S1 : skipn (List.length args) (rev args ++ fn :: st) = fn :: st).
  { rewrite <- (rev_length args). rewrite skipn_app, skipn_all, Nat.sub_diag. reflexivity. }
  assert (F1 : firstn (List.length args) (rev args ++ fn :: st) = rev args).
  { rewrite <- (rev_length args). rewrite firstn_app, firstn_all, Nat.sub_diag. simpl. apply app_nil_r. }
  rewrite S1, F1, rev_involutive, join_commas. reflexivity.
Qed.

Lemma nt_call_suffix : forall v f fn args st rest,
  nt (List.length (call_suffix v (List.length args)) + f) (call_suffix v (List.length args) ++ rest) (rev args ++ fn :: st) =
  nt f rest ((fn @@ "(" @@ commas args @@ ")") :: st).
Proof. intros [] f fn args st rest; apply nt_call. Qed.

Lemma call_suffix_len_pos : forall v n, exists k, List.length (call_suffix v n) = S k.
Proof. intros [] n; simpl; eauto. Qed.

(* Expressions.  Decompiling compiled code consumes exactly its length in fuel, so the
   specification is stated for fuel = length + whatever is left for the rest. *)
Definition rexprs (es : list expr) : list string := rev (map render_expr es).

Lemma rexprs_len : forall es, List.length (rexprs es) = List.length es.
Proof. intros. unfold rexprs. rewrite rev_length, map_length. reflexivity. Qed.

Definition expr_spec (v : version) (e : expr) : Prop :=
  forall fuel rest st,
    nt (List.length (compile_expr v e) + fuel) (compile_expr v e ++ rest) st =
    if sup_expr v e then nt fuel rest (render_expr e :: st) else Err.

Definition exprs_spec (v : version) (es : list expr) : Prop :=
  forall fuel rest st,
    nt (List.length (flat_map (compile_expr v) es) + fuel) (flat_map (compile_expr v) es ++ rest) st =
    if forallb (sup_expr v) es then nt fuel rest (rexprs es ++ st) else Err.

Lemma exprs_of_Forall : forall v es, Forall (expr_spec v) es -> exprs_spec v es.
Proof.
  intros v es H. induction H as [|e es He Hes IH]; intros fuel rest st.
  - reflexivity.
  - simpl flat_map. rewrite <- app_assoc. rewrite app_length_plus. rewrite He.
    simpl forallb. destruct (sup_expr v e); simpl; [|reflexivity].
    rewrite IH. destruct (forallb (sup_expr v) es); [|reflexivity].
    unfold rexprs. simpl. rewrite <- app_assoc. reflexivity.
Qed.

Lemma expr_ok : forall v e, expr_spec v e.
Proof.
  intros v. apply expr_ind2; unfold expr_spec.
  - intros; reflexivity.
  - intros; reflexivity.
  - intros e a IH fuel rest st. simpl compile_expr. rewrite <- app_assoc, app_length_plus, IH.
    simpl. rewrite attr_obj_primary. destruct (sup_expr v e); reflexivity.
  - intros e i IHe IHi fuel rest st. simpl compile_expr.
    rewrite <- !app_assoc, app_length_plus, IHe, app_length_plus, IHi.
    simpl. destruct (sup_expr v e), (sup_expr v i); reflexivity.
  - (* slice: 3.11 has no BINARY_SLICE, the BUILD_SLICE it emits is refused *)
    intros e lo hi IHe IHlo IHhi fuel rest st. simpl compile_expr.
    rewrite <- !app_assoc, app_length_plus, IHe, app_length_plus, IHlo, app_length_plus, IHhi.
    simpl sup_expr. destruct (sup_expr v e), (sup_expr v lo), (sup_expr v hi), v; reflexivity.
  - intros f args IHf IHargs fuel rest st. simpl compile_expr.
    rewrite <- !app_assoc. rewrite app_length_plus, nt_push_null, IHf. simpl sup_expr.
    destruct (sup_expr v f); simpl; [|reflexivity].
    rewrite app_length_plus, (exprs_of_Forall v args IHargs).
    destruct (forallb (sup_expr v) args); [|reflexivity].
    rewrite <- (map_length render_expr args). unfold rexprs.
    rewrite nt_call_suffix. reflexivity.
  - intros o m args IHo IHargs fuel rest st. simpl compile_expr.
    rewrite <- !app_assoc. rewrite app_length_plus, IHo. simpl sup_expr.
    destruct (sup_expr v o); simpl; [|reflexivity].
    rewrite <- ?app_assoc.
    rewrite app_length_plus, (exprs_of_Forall v args IHargs).
    destruct (forallb (sup_expr v) args); [|reflexivity].
    rewrite <- (map_length render_expr args). unfold rexprs.
    rewrite nt_call_suffix. rewrite attr_obj_primary. rewrite !sapp_assoc. reflexivity.
  - intros tag subs IH fuel rest st. simpl compile_expr.
    rewrite <- app_assoc, app_length_plus, (exprs_of_Forall v subs IH).
    simpl. destruct (forallb (sup_expr v) subs); reflexivity.
  - intros k s e IH fuel rest st. simpl compile_expr.
    rewrite <- app_assoc, app_length_plus, IH. simpl. destruct (sup_expr v e); reflexivity.
  - intros tag f args IHf IHargs fuel rest st. simpl compile_expr.
    rewrite <- !app_assoc. rewrite app_length_plus, nt_push_null, IHf. simpl sup_expr.
    destruct (sup_expr v f); simpl; [|reflexivity].
    rewrite app_length_plus, (exprs_of_Forall v args IHargs).
    destruct (forallb (sup_expr v) args); [|reflexivity].
    destruct (Nat.eqb tag 3); reflexivity.
Qed.

(* Targets.  The recursive calls for the elements of a tuple all get the fuel of the caller
   minus one, so for targets the specification asks for a lower bound [tsize] on the fuel. *)
Fixpoint tsize (v : version) (t : target) : nat :=
  match t with
  | TTuple ts => 2 + List.length ts + list_sum (map (tsize v) ts)
  | TStar b s a =>
      (if Nat.eqb (List.length a) 0 then 3 else 4) +
      List.length b + List.length a + list_sum (map (tsize v) b) + tsize v s + list_sum (map (tsize v) a)
  | _ => List.length (compile_target v t)
  end.

Lemma tsize_star : forall v b s a, tsize v (TStar b s a) =
  (if Nat.eqb (List.length a) 0 then 3 else 4) +
  List.length b + List.length a + list_sum (map (tsize v) b) + tsize v s + list_sum (map (tsize v) a).
Proof. reflexivity. Qed.
Lemma tsize_tuple : forall v ts, tsize v (TTuple ts) = 2 + List.length ts + list_sum (map (tsize v) ts).
Proof. reflexivity. Qed.

Definition target_spec (v : version) (t : target) : Prop :=
  forall fuel rest, tsize v t <= fuel ->
    nt fuel (compile_target v t ++ rest) [] =
    if sup_target v t then Ok (render_target t, rest) else Err.

Definition targets_spec (v : version) (ts : list target) : Prop :=
  forall fuel rest, 1 + List.length ts + list_sum (map (tsize v) ts) <= fuel ->
    nts fuel (List.length ts) (flat_map (compile_target v) ts ++ rest) =
    if forallb (sup_target v) ts then Ok (map render_target ts, rest) else Err.

Lemma targets_of_Forall : forall v ts, Forall (target_spec v) ts -> targets_spec v ts.
Proof.
  intros v ts H. induction H as [|t ts Ht Hts IH]; intros fuel rest Hf.
  - destruct fuel; [simpl in Hf; lia|]. reflexivity.
  - simpl in Hf. destruct fuel as [|f]; [lia|].
    simpl flat_map. rewrite <- app_assoc. simpl List.length.
    rewrite nts_S, Ht by lia. simpl forallb.
    destruct (sup_target v t); simpl; [|reflexivity].
    rewrite IH by lia. destruct (forallb (sup_target v) ts); reflexivity.
Qed.

Lemma nts_one : forall v t, target_spec v t -> forall fuel rest, 2 + tsize v t <= fuel ->
  nts fuel 1 (compile_target v t ++ rest) =
  if sup_target v t then Ok ([render_target t], rest) else Err.
Proof.
  intros v t Ht fuel rest Hf.
  pose proof (targets_of_Forall v [t] (Forall_cons t Ht (Forall_nil _))) as H.
  specialize (H fuel rest). simpl in H. rewrite app_nil_r in H.
  rewrite H by lia. rewrite andb_true_r. reflexivity.
Qed.

Lemma target_leaf : forall v t,
  match t with TTuple _ | TStar _ _ _ => True | _ => target_spec v t end.
Proof.
  intros v t. destruct t; try exact I; intros fuel rest Hf;
    apply le_plus in Hf as [n ->]; simpl tsize; simpl compile_target.
  - reflexivity.
  - rewrite <- app_assoc, app_length_plus, expr_ok.
    simpl. rewrite attr_obj_primary. destruct (sup_expr v e); reflexivity.
  - rewrite <- !app_assoc, app_length_plus, expr_ok, app_length_plus, expr_ok.
    simpl. destruct (sup_expr v e), (sup_expr v i); reflexivity.
  - rewrite <- !app_assoc, app_length_plus, expr_ok, app_length_plus, expr_ok, app_length_plus, expr_ok.
    simpl sup_expr; simpl sup_target. destruct (sup_expr v e), (sup_expr v lo), (sup_expr v hi), v; reflexivity.
Qed.

Lemma target_ok : forall v t, target_spec v t.
Proof.
  intros v. apply target_ind2.
  - intros k s. exact (target_leaf v (TName k s)).
  - intros e a. exact (target_leaf v (TAttr e a)).
  - intros e i. exact (target_leaf v (TSubscr e i)).
  - intros e lo hi. exact (target_leaf v (TSlice e lo hi)).
  - intros ts IH fuel rest Hf. rewrite tsize_tuple in Hf. destruct fuel as [|f]; [lia|].
    simpl compile_target. rewrite <- app_comm_cons, nt_unpack_seq, (targets_of_Forall v ts IH) by lia.
    simpl sup_target. destruct (forallb (sup_target v) ts); [|reflexivity].
    simpl. rewrite format_paren. reflexivity.
  - intros b s a IHb IHs IHa fuel rest Hf. rewrite tsize_star in Hf.
    assert (G : forall f, 2 + List.length b + List.length a + list_sum (map (tsize v) b) + tsize v s + list_sum (map (tsize v) a) <= f ->
      nt (S f) (IUnpackEx (List.length b) (List.length a) ::
                (flat_map (compile_target v) b ++ compile_target v s ++ flat_map (compile_target v) a) ++ rest) [] =
      if sup_target v (TStar b s a) then Ok (render_target (TStar b s a), rest) else Err).
    { intros f Hf2.
      rewrite nt_unpack_ex, <- !app_assoc, (targets_of_Forall v b IHb) by lia. simpl sup_target.
      destruct (forallb (sup_target v) b); simpl; [|reflexivity].
      rewrite (nts_one v s IHs) by lia.
      destruct (sup_target v s); simpl; [|reflexivity].
      rewrite (targets_of_Forall v a IHa) by lia.
      destruct (forallb (sup_target v) a); [|reflexivity].
      simpl. rewrite format_paren. reflexivity. }
    (* the count of targets after the star needs an EXTENDED_ARG, which costs one step *)
    simpl compile_target. destruct (Nat.eqb (List.length a) 0); simpl app.
    + destruct fuel as [|f]; [lia|]. apply G. lia.
    + destruct fuel as [|[|f]]; try lia. rewrite nt_ext_arg. apply G. lia.
Qed.

(* Where the fuel 3 * length + 3 of [describe] comes from.  A compiled target needs [tsize]: one
   step per instruction, and for a tuple or starred target one more per element plus two, since
   [nts] starts one unit below the UNPACK step, hands each element one unit less than the one
   before, and spends one on the empty rest.  By induction [tsize] + 1 <= 3 * length
   ([tsize_bound]).  On arbitrary instruction streams more than 2 * length + 1 units are never
   used up ([no_fuel]). *)
Lemma sum_le_len : forall v ts,
  Forall (fun t => tsize v t + 1 <= 3 * List.length (compile_target v t)) ts ->
  List.length ts + list_sum (map (tsize v) ts) <= 3 * List.length (flat_map (compile_target v) ts).
Proof.
  intros v ts H. induction H as [|t ts Ht _ IH]; simpl; [lia|].
  rewrite app_length. lia.
Qed.

Definition plain_head (c : list insn) : bool :=
  match c with
  | [] => false
  | IPopTop :: _ => false
  | IStoreName _ _ :: _ => false
  | _ => true
  end.

Lemma plain_head_app : forall c r, plain_head c = true -> plain_head (c ++ r) = true.
Proof. intros [|i c] r H; [discriminate|]. destruct i; simpl in *; auto. Qed.

Lemma plain_push_null : forall c, plain_head (push_null c) = true.
Proof. intros [|i r]; [reflexivity|]. destruct i; try reflexivity. destruct k; reflexivity. Qed.

Lemma ce_plain : forall v e, plain_head (compile_expr v e) = true.
Proof.
  intros v. apply expr_ind2; intros; simpl compile_expr; try reflexivity;
    try (apply plain_head_app; assumption);
    try (apply plain_head_app; apply plain_push_null).
  destruct subs as [|x r]; [reflexivity|].
  inversion H; subst. simpl flat_map. rewrite <- app_assoc. apply plain_head_app. assumption.
Qed.

Lemma ce_len_pos : forall v e, 1 <= List.length (compile_expr v e).
Proof.
  intros v e. pose proof (ce_plain v e) as H.
  destruct (compile_expr v e); [discriminate | simpl; lia].
Qed.

Lemma tsize_bound : forall v t, tsize v t + 1 <= 3 * List.length (compile_target v t).
Proof.
  intros v. apply target_ind2.
  - intros; simpl; lia.
  - intros e a. simpl. rewrite app_length. simpl. pose proof (ce_len_pos v e). lia.
  - intros e i. simpl. rewrite !app_length. simpl. pose proof (ce_len_pos v e). lia.
  - intros e lo hi. simpl. rewrite !app_length. pose proof (ce_len_pos v e). destruct v; simpl; lia.
  - intros ts IH. pose proof (sum_le_len v ts IH). simpl. lia.
  - intros b s a IHb IHs IHa.
    pose proof (sum_le_len v b IHb). pose proof (sum_le_len v a IHa).
    rewrite tsize_star. simpl compile_target. rewrite app_length. simpl List.length. rewrite !app_length.
    destruct (Nat.eqb (List.length a) 0); simpl List.length; lia.
Qed.

Lemma describe_plain : forall ins, plain_head ins = true ->
  describe ins = match nt (3 * List.length ins + 3) ins [] with
                 | Ok (s, _) => DSome s | Err => DNone | Fuel => DFuel end.
Proof. intros [|i q] H; [discriminate|]. destruct i; try discriminate; reflexivity. Qed.

Lemma ct_plain : forall v t rest,
  (exists k s, t = TName k s) \/ plain_head (compile_target v t ++ rest) = true.
Proof.
  intros v t rest. destruct t; [left; eauto | right ..]; simpl; rewrite <- ?app_assoc;
    try (apply plain_head_app, ce_plain); try reflexivity.
  destruct (Nat.eqb (List.length after) 0); reflexivity.
Qed.

Lemma describe_target : forall v t rest,
  describe (compile_target v t ++ rest) =
  if sup_target v t then DSome (render_target t) else DNone.
Proof.
  intros v t rest. destruct (ct_plain v t rest) as [[k [s ->]]|H].
  - (* both paths give the name *) simpl. destruct k; reflexivity.
  - rewrite (describe_plain _ H), target_ok; [destruct (sup_target v t); reflexivity|].
    pose proof (tsize_bound v t). rewrite app_length. lia.
Qed.

Theorem item_expected : forall v (t : option target) rest,
  describe (compile_item v t ++ rest) = expected v t.
Proof. intros v [t|] rest; [apply describe_target | reflexivity]. Qed.

Lemma expected_some : forall v t s, expected v t = DSome s ->
  exists t', t = Some t' /\ sup_target v t' = true /\ s = render_target t'.
Proof.
  intros v [t|] s H; [|discriminate]. simpl in H.
  destruct (sup_target v t) eqn:E; [|discriminate]. injection H as <-. eauto.
Qed.

(* [describe] never runs out of fuel.  Every step consumes an instruction, and the recursive
   calls for the elements of a tuple go on where the previous one stopped: a result is not Fuel
   and leaves at most [n] instructions. *)
Definition within {A} (n : nat) (r : res (A * list insn)) : Prop :=
  match r with Ok (_, q) => List.length q < n | Err => True | Fuel => False end.

Lemma within_le : forall {A} n m (r : res (A * list insn)), n <= m -> within n r -> within m r.
Proof. intros A n m [[x q]| |] H; simpl; auto. lia. Qed.

Lemma within_finish : forall st rest, within (S (List.length rest)) (finish st rest).
Proof. intros [|a [|b st]] rest; simpl; auto. Qed.

Lemma within_then : forall {A B} n m (r : res (A * list insn)) (k : A -> list insn -> res (B * list insn)),
  within n r -> (forall x q, List.length q < n -> within m (k x q)) ->
  within m (match r with Ok (x, q) => k x q | Err => Err | Fuel => Fuel end).
Proof. intros A B n m [[x q]| |] k H Hk; simpl; auto. Qed.

Lemma no_fuel : forall f,
  (forall ins st, 2 * List.length ins + 1 < f -> within (List.length ins) (nt f ins st)) /\
  (forall n ins, 2 * List.length ins + 2 < f -> within (S (List.length ins)) (nts f n ins)).
Proof.
  induction f as [|f [IHnt IHnts]]; [split; intros; lia|].
  split.
  - intros [|i rest] st Hf; [exact I|]. simpl List.length in *.
    assert (Step : forall st', within (S (List.length rest)) (nt f rest st')).
    { intros st'. apply (within_le (List.length rest)); [lia | apply IHnt; lia]. }
    assert (Seq : forall n q, List.length q <= List.length rest -> within (S (List.length q)) (nts f n q))
      by (intros; apply IHnts; lia).
    destruct i; cbn [nt]; try apply Step; try apply within_finish; try exact I.
    + destruct st; [exact I | apply Step].
    + destruct st; [exact I | apply within_finish].
    + destruct st as [|a [|b st]]; try exact I; apply Step.
    + destruct st as [|a [|b st]]; try exact I; apply within_finish.
    + destruct a3; [destruct st as [|a [|b [|c [|d st]]]] | destruct st as [|a [|b [|c st]]]]; try exact I; apply Step.
    + destruct a3; [destruct st as [|a [|b [|c [|d st]]]] | destruct st as [|a [|b [|c st]]]]; try exact I; apply within_finish.
    + eapply within_then; [apply Seq, le_n|]. intros vals r' B.
      apply (within_le (S (List.length r'))); [exact B | apply within_finish].
    + (* IUnpackEx: three runs, each going on where the previous one stopped *)
      eapply within_then; [apply Seq, le_n|]. intros bv r1 B1.
      eapply within_then; [apply Seq; lia|]. intros sv r2 B2.
      eapply within_then; [apply Seq; lia|]. intros av r3 B3.
      apply (within_le (S (List.length r3))); [lia | apply within_finish].
    + destruct (Nat.ltb (List.length st) (S n)); [exact I|].
      destruct (skipn n st); [exact I | apply Step].
    + destruct st; [exact I | apply Step].
    + destruct st; [exact I | apply Step].
  - intros [|n'] ins Hf; [exact (le_n _)|].
    rewrite nts_S.
    eapply within_then; [apply IHnt; lia|]. intros x r B.
    eapply within_then; [apply IHnts; lia|]. intros vs r' B2. simpl in *. lia.
Qed.

Lemma describe_nofuel : forall ins, nt (3 * List.length ins + 3) ins [] <> Fuel.
Proof.
  intros ins E. pose proof (proj1 (no_fuel (3 * List.length ins + 3)) ins [] ltac:(lia)) as H. rewrite E in H. exact H.
Qed.

Lemma dres_eqb_eq : forall a b, dres_eqb a b = true -> a = b.
Proof.
  intros [s| |] [s'| |] H; simpl in H; try discriminate; auto.
  apply String.eqb_eq in H. subst. reflexivity.
Qed.

Lemma last_bound_bound : forall locals obj n, last_bound locals obj = Some n -> In (n, obj) locals.
Proof.
  induction locals as [|[m v] r IH]; simpl; intros obj n H; [discriminate|].
  destruct (last_bound r obj) eqn:E.
  - inversion H; subst. right. apply IH. assumption.
  - destruct (Nat.eqb v obj) eqn:Ev; [|discriminate].
    apply Nat.eqb_eq in Ev. inversion H; subst. left. reflexivity.
Qed.
