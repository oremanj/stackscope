(* P_Dispatch.v — lemmas about M_Dispatch (property C12).  Each part of the model is set against a
   reference that has no fuel and no representation:
   - get_code: [innermost], the code object at the bottom of a tower, and [Resolves], the name
     path through co_consts; the loops of the model reach them because every step of [peel] /
     [unwrap_chain] makes the tower smaller ([peel_spec], [get_code_spec]);
   - IdentityDict: a finite map on identities ([spec_step]); the association list refines it
     under the invariant [wf] (one slot per identity, filed under its key's id) ([irun_refines]);
   - the registry: [latest], the last registration that resolves to a code identity ([latest_wins]);
   - customize and the walk along a chain of frames: [documented_effect] per frame and the
     relation [Walk], of which the fuelled [walk] is sound and, with enough fuel, complete. *)
From Coq Require Import String.
Require Import Base M_Dispatch.

(* Reference: the function / code object at the bottom of the tower.  Calling a partial, a bound
   method, a classmethod or staticmethod runs what calling its target runs; a functools.wraps
   wrapper stands for the decorated original. *)
Fixpoint innermost (t : tower) : option code :=
  match t with
  | TFn c | TCode c => Some c
  | TPartial f | TMethod f | TClassM f | TStaticM f => innermost f
  | TWrapped _ i => innermost i
  | TOther => None
  end.

Fixpoint leaf (t : tower) : tower :=
  match t with
  | TPartial f | TMethod f | TClassM f | TStaticM f => leaf f
  | TWrapped _ i => leaf i
  | _ => t
  end.

Lemma tower_size_pos t : 1 <= tower_size t.
Proof. destruct t; simpl; lia. Qed.

Lemma wrapped_of_smaller t : has_wrapped t = true -> tower_size (wrapped_of t) < tower_size t.
Proof. induction t; simpl; intros Hw; try discriminate; try lia. specialize (IHt Hw). lia. Qed.

Lemma wrapped_of_leaf t : has_wrapped t = true -> leaf (wrapped_of t) = leaf t.
Proof. induction t; simpl; intros Hw; try discriminate; auto. Qed.

Lemma leaf_no_wrapped t : has_wrapped (leaf t) = false.
Proof. induction t; simpl; auto. Qed.

Lemma leaf_idem t : leaf (leaf t) = leaf t.
Proof. induction t; simpl; auto. Qed.

Lemma unwrap_chain_spec fuel : forall t, tower_size t <= fuel ->
  exists u, unwrap_chain fuel t = Some u /\ leaf u = leaf t /\ tower_size u <= tower_size t.
Proof.
  induction fuel as [|n IH]; intros t Hs.
  - pose proof (tower_size_pos t). lia.
  - simpl. destruct (has_wrapped t) eqn:Hw; [|eauto].
    pose proof (wrapped_of_smaller t Hw) as Hlt.
    destruct (IH (wrapped_of t)) as (u & E & Hl & Hsz); [lia|].
    exists u. rewrite E, Hl, (wrapped_of_leaf t Hw). repeat split; auto; lia.
Qed.

Lemma peel_spec fuel : forall t, tower_size t <= fuel -> peel fuel t = Some (leaf t).
Proof.
  induction fuel as [|n IH]; intros t Hs.
  - pose proof (tower_size_pos t). lia.
  - destruct t; simpl in Hs; try (simpl; apply IH; lia); try reflexivity.
    (* TWrapped: inspect.unwrap follows the chain, then the loop goes on *)
    destruct (unwrap_chain_spec n t) as (u & E & Hl & Hsz); [lia|].
    change (peel (S n) (TWrapped outer t))
      with (match unwrap_chain n t with Some u => peel n u | None => None end).
    rewrite E. rewrite IH by lia. now rewrite Hl.
Qed.

Lemma code_of_leaf t :
  code_of (leaf t) = match innermost t with Some c => GOk c | None => GErr ETypeError end.
Proof. induction t; simpl; auto. Qed.

Lemma get_code_spec t names :
  get_code t names = match innermost t with
                     | Some c => walk_names 0 c names
                     | None => GErr ETypeError
                     end.
Proof.
  unfold get_code, get_code_fuel. rewrite peel_spec by lia. rewrite code_of_leaf.
  destruct (innermost t); reflexivity.
Qed.

Lemma walk_names_fuel_free i c names : walk_names i c names <> GErr EOutOfFuel.
Proof.
  revert i c; induction names as [|n r IH]; intros i c; simpl; [discriminate|].
  destruct (find_named n (code_consts c)); [apply IH|discriminate].
Qed.

Lemma get_code_fuel_enough fuel t names :
  tower_size t <= fuel -> get_code_fuel fuel t names = get_code t names.
Proof.
  intros Hs. unfold get_code, get_code_fuel. rewrite !peel_spec by lia. reflexivity.
Qed.

Definition FirstNamed (n : string) (consts : list (option code)) (c : code) : Prop :=
  exists pre post, consts = pre ++ Some c :: post /\ code_name c = n /\
                   forall x, In (Some x) pre -> code_name x <> n.
Definition NoneNamed (n : string) (consts : list (option code)) : Prop :=
  forall x, In (Some x) consts -> code_name x <> n.

(* idx counts the names consumed *)
Inductive Resolves : code -> list string -> nat -> gres -> Prop :=
  | R_done c i : Resolves c [] i (GOk c)
  | R_step c n r i c' res :
      FirstNamed n (code_consts c) c' -> Resolves c' r (S i) res -> Resolves c (n :: r) i res
  | R_miss c n r i :
      NoneNamed n (code_consts c) -> Resolves c (n :: r) i (GErr (EValueError i)).

Lemma find_named_some n consts c : find_named n consts = Some c -> FirstNamed n consts c.
Proof.
  induction consts as [|[x|] r IH]; simpl; intros E; try discriminate.
  - destruct (String.eqb (code_name x) n) eqn:En.
    + injection E as <-. exists [], r. split; [reflexivity|split; [now apply String.eqb_eq|intros ? []]].
    + destruct (IH E) as (pre & post & -> & Hn & Hp). exists (Some x :: pre), post. repeat split; auto.
      intros y [Hy|Hy]; [injection Hy as <-; now apply String.eqb_neq|auto].
  - destruct (IH E) as (pre & post & -> & Hn & Hp). exists (None :: pre), post. repeat split; auto.
    intros y [Hy|Hy]; [discriminate|auto].
Qed.

Lemma find_named_none n consts : find_named n consts = None -> NoneNamed n consts.
Proof.
  induction consts as [|[x|] r IH]; simpl; intros E y Hy; try contradiction.
  - destruct (String.eqb (code_name x) n) eqn:En; [discriminate|].
    destruct Hy as [Hy|Hy]; [injection Hy as <-; now apply String.eqb_neq|now apply IH].
  - destruct Hy as [Hy|Hy]; [discriminate|now apply IH].
Qed.

Lemma FirstNamed_find n consts c : FirstNamed n consts c -> find_named n consts = Some c.
Proof.
  intros (pre & post & -> & Hn & Hp). induction pre as [|[x|] pre IH]; simpl.
  - apply String.eqb_eq in Hn. now rewrite Hn.
  - assert (code_name x <> n) as Hx by (apply Hp; now left).
    apply String.eqb_neq in Hx. rewrite Hx. apply IH. intros y Hy. apply Hp. now right.
  - apply IH. intros y Hy. apply Hp. now right.
Qed.

Lemma NoneNamed_find n consts : NoneNamed n consts -> find_named n consts = None.
Proof.
  intros H. destruct (find_named n consts) eqn:E; auto.
  destruct (find_named_some _ _ _ E) as (pre & post & -> & Hn & _).
  exfalso. apply (H c); auto. apply in_or_app. right. now left.
Qed.

Lemma walk_names_sound names : forall i c, Resolves c names i (walk_names i c names).
Proof.
  induction names as [|n r IH]; intros i c; simpl; [constructor|].
  destruct (find_named n (code_consts c)) eqn:E.
  - eapply R_step; [apply find_named_some; exact E|apply IH].
  - apply R_miss. now apply find_named_none.
Qed.

Lemma Resolves_deterministic c names i res : Resolves c names i res -> res = walk_names i c names.
Proof.
  induction 1; simpl; auto.
  - now rewrite (FirstNamed_find _ _ _ H).
  - now rewrite (NoneNamed_find _ _ H).
Qed.

Section IDictFacts.
  Context {K V : Type}.
  Notation dict := (idict K V).

  Definition ids (d : dict) : list nat := map fst d.

  Lemma find_set (d : dict) i x j : d_find (d_set d i x) j = if j =? i then Some x else d_find d j.
  Proof.
    induction d as [|[a kv] r IH]; simpl.
    - destruct (j =? i); reflexivity.
    - destruct (i =? a) eqn:Eia; simpl.
      + apply Nat.eqb_eq in Eia; subst a. destruct (j =? i); reflexivity.
      + destruct (j =? a) eqn:Eja.
        * apply Nat.eqb_eq in Eja; subst a. rewrite Nat.eqb_sym in Eia.
          destruct (j =? i) eqn:Eji; [congruence|reflexivity].
        * apply IH.
  Qed.

  Lemma find_not_in (d : dict) i : ~ In i (ids d) -> d_find d i = None.
  Proof.
    induction d as [|[a kv] r IH]; simpl; auto. intros H.
    destruct (i =? a) eqn:E; [apply Nat.eqb_eq in E; subst; tauto|]. apply IH. tauto.
  Qed.

  Lemma find_app (d e : dict) j :
    d_find (d ++ e) j = match d_find d j with Some x => Some x | None => d_find e j end.
  Proof. induction d as [|[a x] r IH]; simpl; auto. destruct (j =? a); auto. Qed.

  Lemma find_in (d : dict) i kv : d_find d i = Some kv -> In (i, kv) d.
  Proof.
    induction d as [|[a x] r IH]; simpl; [discriminate|].
    destruct (i =? a) eqn:E; [apply Nat.eqb_eq in E; subst; intros [= ->]; now left|].
    intros H; right; auto.
  Qed.

  Lemma in_ids (d : dict) i kv : In (i, kv) d -> In i (ids d).
  Proof. intros H. change i with (fst (i, kv)). now apply in_map. Qed.

  Lemma in_ids_find (d : dict) i : In i (ids d) <-> d_find d i <> None.
  Proof.
    split.
    - induction d as [|[a x] r IH]; simpl; [tauto|].
      destruct (Nat.eqb_spec i a); [discriminate|]. intros [H|H]; [congruence|auto].
    - destruct (d_find d i) eqn:E; [|congruence]. intros _. apply find_in in E. eapply in_ids; eauto.
  Qed.

  Lemma ids_in (d : dict) i : In i (ids d) -> exists kv, In (i, kv) d.
  Proof. intros H. apply in_map_iff in H as ([j kv] & E & Hin). simpl in E; subst. eauto. Qed.

  Lemma in_find (d : dict) i kv : NoDup (ids d) -> In (i, kv) d -> d_find d i = Some kv.
  Proof.
    induction d as [|[a x] r IH]; simpl; [tauto|]. intros Hn [H|H].
    - injection H as -> ->. now rewrite Nat.eqb_refl.
    - inversion Hn; subst. destruct (i =? a) eqn:E.
      + apply Nat.eqb_eq in E; subst a. exfalso. apply H2. eapply in_ids; eauto.
      + auto.
  Qed.

  Lemma d_remove_incl (d : dict) i : incl (d_remove d i) d.
  Proof.
    induction d as [|[a x] r IH]; simpl; [easy|].
    destruct (i =? a); [apply incl_tl, incl_refl|]. apply incl_cons; [now left|apply incl_tl, IH].
  Qed.

  Lemma nodup_remove (d : dict) i : NoDup (ids d) -> NoDup (ids (d_remove d i)).
  Proof.
    induction d as [|[a x] r IH]; simpl; auto. intros Hn; inversion Hn; subst.
    destruct (i =? a); simpl; auto. constructor; auto. intros H. apply H1.
    revert H. apply incl_map, d_remove_incl.
  Qed.

  Lemma find_remove (d : dict) i j : NoDup (ids d) ->
    d_find (d_remove d i) j = if j =? i then None else d_find d j.
  Proof.
    induction d as [|[a x] r IH]; simpl; intros Hn.
    - destruct (j =? i); reflexivity.
    - inversion Hn; subst. destruct (i =? a) eqn:Eia.
      + apply Nat.eqb_eq in Eia; subst a. destruct (j =? i) eqn:Eji; auto.
        apply Nat.eqb_eq in Eji; subst. now apply find_not_in.
      + simpl. destruct (j =? a) eqn:Eja.
        * apply Nat.eqb_eq in Eja; subst a. rewrite Nat.eqb_sym in Eia. now rewrite Eia.
        * auto.
  Qed.

  Lemma in_set (d : dict) i x e : In e (d_set d i x) -> e = (i, x) \/ In e d.
  Proof.
    induction d as [|[a y] r IH]; simpl.
    - intros [<-|[]]; auto.
    - destruct (i =? a) eqn:E; simpl.
      + apply Nat.eqb_eq in E; subst. intros [<-|H]; auto.
      + intros [H|H]; auto. destruct (IH H); auto.
  Qed.

  Lemma ids_set (d : dict) i x j : In j (ids (d_set d i x)) -> j = i \/ In j (ids d).
  Proof.
    intros H. apply ids_in in H as (kv & H).
    apply in_set in H as [[= -> _]|H]; [auto|right; eapply in_ids; eauto].
  Qed.

  Lemma nodup_set (d : dict) i x : NoDup (ids d) -> NoDup (ids (d_set d i x)).
  Proof.
    induction d as [|[a y] r IH]; simpl; intros Hn.
    - repeat constructor; auto.
    - inversion Hn; subst. destruct (i =? a) eqn:E; simpl; constructor; auto.
      intros H. apply ids_set in H as [->|H]; [now rewrite Nat.eqb_refl in E|auto].
  Qed.

  Variable kid : K -> nat.
  Definition wf (d : dict) : Prop :=
    NoDup (ids d) /\ forall i k v, In (i, (k, v)) d -> kid k = i.

  Lemma wf_nil : wf [].
  Proof. split; [constructor|intros ? ? ? []]. Qed.

  Lemma wf_setitem d k v : wf d -> wf (id_setitem kid d k v).
  Proof.
    intros [Hn Hk]. split; [now apply nodup_set|].
    intros i k' v' H. apply in_set in H as [H|H]; [now injection H as -> -> ->|eauto].
  Qed.

  Lemma wf_remove d i : wf d -> wf (d_remove d i).
  Proof.
    intros [Hn Hk]. split; [now apply nodup_remove|]. intros j k v H. apply d_remove_incl in H. eauto.
  Qed.

  Lemma d_set_fresh (d : dict) i x : d_find d i = None -> d_set d i x = d ++ [(i, x)].
  Proof.
    induction d as [|[a y] r IH]; simpl; auto.
    destruct (i =? a); [discriminate|]. intros H. now rewrite IH.
  Qed.

  Lemma wf_update d items : wf d -> wf (id_update kid d items).
  Proof.
    revert d; induction items as [|[k v] r IH]; simpl; intros d H; auto. apply IH. now apply wf_setitem.
  Qed.

  Lemma init_is_update items : id_init kid items = id_update kid ([] : dict) items.
  Proof.
    unfold id_init, id_update. generalize ([] : dict).
    induction items as [|[k v] r IH]; simpl; intros d; auto.
  Qed.

  Lemma wf_init items : wf (id_init kid items).
  Proof. rewrite init_is_update. apply wf_update, wf_nil. Qed.

  (* popitem takes the last slot: the same as removing its identity *)
  Lemma remove_last (d : dict) i x : NoDup (ids (d ++ [(i, x)])) -> d_remove (d ++ [(i, x)]) i = d.
  Proof.
    induction d as [|[a y] r IH]; simpl; intros Hn; [now rewrite Nat.eqb_refl|].
    inversion Hn as [|? ? Ha Hr]; subst. destruct (Nat.eqb_spec i a) as [->|_]; [|now rewrite IH].
    destruct Ha. unfold ids. rewrite map_app. apply in_or_app. right. now left.
  Qed.
End IDictFacts.

(* The reference: a finite map on identities; order-dependent observations are only
   required to enumerate the map *)
Definition fmap := nat -> option (key * nat).
Definition fempty : fmap := fun _ => None.
Definition upd (m : fmap) (i : nat) (x : option (key * nat)) : fmap :=
  fun j => if j =? i then x else m j.
Definition fset (m : fmap) (kv : key * nat) : fmap := upd m (k_id (fst kv)) (Some kv).
Definition fsets (m : fmap) (items : list (key * nat)) : fmap := fold_left fset items m.
Definition feq (m m' : fmap) : Prop := forall i, m i = m' i.
Definition enumerates (m : fmap) (l : list (key * nat)) : Prop :=
  NoDup (map (fun kv => k_id (fst kv)) l) /\ forall kv, In kv l <-> m (k_id (fst kv)) = Some kv.

Inductive spec_step : fmap -> iop -> iobs -> fmap -> Prop :=
  | S_init m items m' : feq m' (fsets fempty items) -> spec_step m (OInit items) BNone m'
  | S_set m k v m' : feq m' (fset m (k, v)) -> spec_step m (OSet k v) BNone m'
  | S_get_hit m k k' v : m (k_id k) = Some (k', v) -> spec_step m (OGet k) (BVal v) m
  | S_get_miss m k : m (k_id k) = None -> spec_step m (OGet k) BKeyErr m
  | S_del_hit m k kv m' : m (k_id k) = Some kv -> feq m' (upd m (k_id k) None) -> spec_step m (ODel k) BNone m'
  | S_del_miss m k : m (k_id k) = None -> spec_step m (ODel k) BKeyErr m
  | S_pop_hit m k k' v m' : m (k_id k) = Some (k', v) -> feq m' (upd m (k_id k) None) ->
                            spec_step m (OPop k) (BVal v) m'
  | S_pop_miss m k : m (k_id k) = None -> spec_step m (OPop k) BKeyErr m
  | S_popd_hit m k df k' v m' : m (k_id k) = Some (k', v) -> feq m' (upd m (k_id k) None) ->
                                spec_step m (OPopD k df) (BVal v) m'
  | S_popd_miss m k df : m (k_id k) = None -> spec_step m (OPopD k df) (BVal df) m
  | S_popitem m k v m' : m (k_id k) = Some (k, v) -> feq m' (upd m (k_id k) None) ->
                         spec_step m OPopItem (BItem (k_id k) (k_cls k) v) m'
  | S_popitem_empty m : feq m fempty -> spec_step m OPopItem BKeyErr m
  | S_clear m m' : feq m' fempty -> spec_step m OClear BNone m'
  | S_setdefault_hit m k v k' v' : m (k_id k) = Some (k', v') -> spec_step m (OSetDefault k v) (BVal v') m
  | S_setdefault_miss m k v m' : m (k_id k) = None -> feq m' (fset m (k, v)) ->
                                 spec_step m (OSetDefault k v) (BVal v) m'
  | S_len m l : enumerates m l -> spec_step m OLen (BLen (length l)) m
  | S_iter m l : enumerates m l -> spec_step m OIter (BKeys (map (fun kv => key_pair (fst kv)) l)) m
  | S_contains m k : spec_step m (OContains k) (BBool (match m (k_id k) with Some _ => true | None => false end)) m
  | S_getd m k df : spec_step m (OGetD k df) (BVal (match m (k_id k) with Some kv => snd kv | None => df end)) m
  | S_items m l : enumerates m l -> spec_step m OItems (BItems (map item_triple l)) m
  | S_update m items m' : feq m' (fsets m items) -> spec_step m (OUpdate items) BNone m'
  | S_eqnew m items b :
      (b = true <-> forall i, option_map snd (m i) = option_map snd (fsets fempty items i)) ->
      spec_step m (OEqNew items) (BBool b) m.

Inductive spec_run : fmap -> list iop -> list iobs -> fmap -> Prop :=
  | SR_nil m : spec_run m [] [] m
  | SR_cons m o b m1 ops bs m2 : spec_step m o b m1 -> spec_run m1 ops bs m2 ->
                                 spec_run m (o :: ops) (b :: bs) m2.

Definition abs (d : kdict) : fmap := d_find d.
Notation kwf := (wf k_id).

Lemma abs_setitem d k v : feq (abs (id_setitem k_id d k v)) (fset (abs d) (k, v)).
Proof. intros i. unfold abs, id_setitem, fset, upd. simpl. apply find_set. Qed.

Lemma fsets_feq items : forall m m', feq m m' -> feq (fsets m items) (fsets m' items).
Proof.
  induction items as [|kv r IH]; simpl; intros m m' H; auto. apply IH.
  intros i. unfold fset, upd. destruct (i =? _); auto.
Qed.

Lemma abs_update items : forall d, feq (abs (id_update k_id d items)) (fsets (abs d) items).
Proof.
  induction items as [|[k v] r IH]; simpl; intros d; [intros i; reflexivity|].
  intros i. rewrite IH. apply fsets_feq. apply abs_setitem.
Qed.

Lemma abs_init items : feq (abs (id_init k_id items)) (fsets fempty items).
Proof. rewrite init_is_update. apply (abs_update items []). Qed.

Lemma abs_remove d i : kwf d -> feq (abs (d_remove d i)) (upd (abs d) i None).
Proof. intros [Hn _] j. unfold abs, upd. now apply find_remove. Qed.

Lemma enumerates_items d : kwf d -> enumerates (abs d) (id_items d).
Proof.
  intros [Hn Hk]. unfold enumerates, id_items. split.
  - rewrite map_map. assert (map (fun x : nat * (key * nat) => k_id (fst (snd x))) d = ids d) as ->; auto.
    unfold ids. apply map_ext_in. intros [i [k v]] Hin. simpl. eauto.
  - intros [k v]. simpl. split.
    + intros H. apply in_map_iff in H as ([i [k' v']] & E & Hin). simpl in E. injection E as -> ->.
      rewrite (Hk _ _ _ Hin). unfold abs. now apply in_find.
    + intros H. apply find_in in H. apply in_map_iff. now exists (k_id k, (k, v)).
Qed.

Lemma id_eq_spec (d e : kdict) : kwf d -> kwf e ->
  id_eq Nat.eqb d e = true <-> forall i, option_map snd (abs d i) = option_map snd (abs e i).
Proof.
  intros [Hnd _] [Hne _]. unfold id_eq, abs. rewrite andb_true_iff, forallb_forall, Nat.eqb_eq.
  rewrite <- (map_length fst d), <- (map_length fst e). fold (ids d) (ids e). split.
  - (* every slot of d has its like in e, and e has no more slots than d *)
    intros [Hlen Hall].
    assert (incl (ids d) (ids e)) as Hde.
    { intros i Hi. apply ids_in in Hi as (kv & Hin). apply in_ids_find.
      specialize (Hall _ Hin). simpl in Hall. now destruct (d_find e i). }
    assert (incl (ids e) (ids d)) as Hed by (apply NoDup_length_incl; auto; lia).
    intros i. destruct (d_find d i) as [kv|] eqn:Ed.
    + apply find_in in Ed. specialize (Hall _ Ed). simpl in Hall. destruct (d_find e i); [|discriminate].
      simpl. f_equal. now apply Nat.eqb_eq.
    + rewrite find_not_in; auto. intros Hi. apply Hed, in_ids_find in Hi. auto.
  - intros H.
    assert (forall i, In i (ids d) <-> In i (ids e)) as Hiff.
    { intros i. rewrite !in_ids_find. specialize (H i).
      destruct (d_find d i), (d_find e i); simpl in H; split; congruence. }
    split.
    + apply Nat.le_antisymm; apply NoDup_incl_length; auto; intros i; apply Hiff.
    + intros [i kv] Hin. simpl. specialize (H i). rewrite (in_find _ _ _ Hnd Hin) in H.
      destruct (d_find e i); [|discriminate]. injection H as ->. apply Nat.eqb_refl.
Qed.

Lemma istep_refines d o : kwf d ->
  kwf (fst (istep d o)) /\ spec_step (abs d) o (snd (istep d o)) (abs (fst (istep d o))).
Proof.
  intros Hwf. pose proof Hwf as [Hn Hk]. destruct o; simpl.
  - split; [apply wf_init|]. constructor. apply abs_init.
  - split; [now apply wf_setitem|]. constructor. apply abs_setitem.
  - split; auto. unfold id_getitem. destruct (d_find d (k_id k)) as [[k' v]|] eqn:E; simpl.
    + now apply S_get_hit with k'. + now constructor.
  - unfold id_delitem. destruct (d_find d (k_id k)) as [kv|] eqn:E; simpl.
    + split; [now apply wf_remove|]. apply S_del_hit with kv; auto. now apply abs_remove.
    + split; auto. now constructor.
  - unfold id_pop. destruct (d_find d (k_id k)) as [[k' v]|] eqn:E; simpl.
    + split; [now apply wf_remove|]. apply S_pop_hit with k'; auto. now apply abs_remove.
    + split; auto. now constructor.
  - unfold id_pop. destruct (d_find d (k_id k)) as [[k' v]|] eqn:E; simpl.
    + split; [now apply wf_remove|]. apply S_popd_hit with k'; auto. now apply abs_remove.
    + split; auto. now constructor.
  - unfold id_popitem. destruct (rev d) as [|[i [k v]] r] eqn:E; simpl;
      apply (f_equal (@rev _)) in E; rewrite rev_involutive in E; simpl in E.
    + subst d. split; auto. constructor. intros i; reflexivity.
    + assert (In (i, (k, v)) d) as Hin by (rewrite E; apply in_or_app; right; now left).
      assert (rev r = d_remove d i) as -> by (rewrite E; symmetry; apply remove_last; now rewrite <- E).
      destruct (Hk _ _ _ Hin).
      split; [now apply wf_remove|]. apply S_popitem; [now apply in_find|now apply abs_remove].
  - split; [apply wf_nil|]. constructor. intros i; reflexivity.
  - unfold id_setdefault. destruct (d_find d (k_id k)) as [[k' v']|] eqn:E; simpl.
    + split; auto. now apply S_setdefault_hit with k'.
    + rewrite <- (d_set_fresh d (k_id k) (k, v) E). split; [now apply (wf_setitem k_id d k v)|].
      apply S_setdefault_miss; auto. apply abs_setitem.
  - split; auto. unfold id_len. rewrite <- (map_length snd d). apply S_len. now apply enumerates_items.
  - split; auto. unfold id_iter. rewrite map_map, <- (map_map snd (fun kv => key_pair (fst kv))).
    apply S_iter. now apply enumerates_items.
  - split; auto. generalize (S_contains (abs d) k).
    unfold abs, id_getitem. destruct (d_find d (k_id k)); auto.
  - split; auto. generalize (S_getd (abs d) k dflt).
    unfold abs, id_getitem. destruct (d_find d (k_id k)); auto.
  - split; auto. apply S_items. now apply enumerates_items.
  - split; [now apply wf_update|]. constructor. apply abs_update.
  - split; auto. constructor. rewrite id_eq_spec; auto; [|apply wf_init].
    split; intros H i; now rewrite (H i), abs_init.
Qed.

Lemma irun_refines ops : forall d, kwf d ->
  kwf (fst (irun d ops)) /\ spec_run (abs d) ops (snd (irun d ops)) (abs (fst (irun d ops))).
Proof.
  induction ops as [|o r IH]; intros d Hwf; simpl.
  - split; auto. constructor.
  - destruct (istep_refines d o Hwf) as [Hwf1 Hs]. destruct (istep d o) as [d1 b] eqn:E1. simpl in *.
    destruct (IH d1 Hwf1) as [Hwf2 Hr]. destruct (irun d1 r) as [d2 bs] eqn:E2. simpl in *.
    split; auto. econstructor; eauto.
Qed.

Lemma getitem_by_identity {K V} (kid : K -> nat) (d : idict K V) k k' :
  kid k = kid k' -> id_getitem kid d k = id_getitem kid d k'.
Proof. unfold id_getitem. now intros ->. Qed.

Lemma setitem_other_identity {K V} (kid : K -> nat) (d : idict K V) k v k' :
  kid k' <> kid k -> id_getitem kid (id_setitem kid d k v) k' = id_getitem kid d k'.
Proof.
  intros H. unfold id_getitem, id_setitem. rewrite find_set.
  apply Nat.eqb_neq in H. now rewrite H.
Qed.

Lemma setitem_same_identity {K V} (kid : K -> nat) (d : idict K V) k v :
  id_getitem kid (id_setitem kid d k v) k = Some v.
Proof. unfold id_getitem, id_setitem. rewrite find_set, Nat.eqb_refl. reflexivity. Qed.

Section RegistryFacts.
  Context {H : Type}.
  Notation reg := (registry H).

  Definition resolves_to (x : tower * list string * H) (i : nat) : bool :=
    match get_code (fst (fst x)) (snd (fst x)) with GOk c => code_id c =? i | GErr _ => false end.

  Fixpoint latest (l : list (tower * list string * H)) (i : nat) : option H :=
    match l with
    | [] => None
    | x :: r => match latest r i with
                | Some h => Some h
                | None => if resolves_to x i then Some (snd x) else None
                end
    end.

  Lemma dispatch_setitem (r : reg) c h i :
    dispatch (id_setitem code_id r c h) i = if i =? code_id c then Some h else dispatch r i.
  Proof. unfold dispatch, id_setitem. rewrite find_set. destruct (i =? code_id c); reflexivity. Qed.

  Lemma dispatch_register (r : reg) t names h i :
    dispatch (fst (register r t names h)) i =
    if resolves_to (t, names, h) i then Some h else dispatch r i.
  Proof.
    unfold register, resolves_to. simpl. destruct (get_code t names) as [c|e]; simpl; auto.
    rewrite dispatch_setitem, Nat.eqb_sym. reflexivity.
  Qed.

  Lemma register_result (r : reg) t names h :
    snd (register r t names h) = match get_code t names with GOk _ => ROk | GErr e => RErr e end.
  Proof. unfold register. destruct (get_code t names); reflexivity. Qed.

  Lemma register_all_cons (r : reg) t ns h rest :
    register_all r ((t, ns, h) :: rest) =
    let r1 := fst (register r t ns h) in
    (fst (register_all r1 rest), snd (register r t ns h) :: snd (register_all r1 rest)).
  Proof. simpl. destruct (register r t ns h) as [r1 x]. simpl. now destruct (register_all r1 rest). Qed.

  Lemma latest_wins l : forall (r : reg) i,
    dispatch (fst (register_all r l)) i =
    match latest l i with Some h => Some h | None => dispatch r i end.
  Proof.
    induction l as [|[[t ns] h] rest IH]; intros r i; [reflexivity|].
    rewrite register_all_cons. simpl. rewrite IH, dispatch_register.
    destruct (latest rest i); auto. destruct (resolves_to (t, ns, h) i); reflexivity.
  Qed.

  Lemma register_all_results l : forall (r : reg),
    snd (register_all r l) =
    map (fun x => match get_code (fst (fst x)) (snd (fst x)) with GOk _ => ROk | GErr e => RErr e end) l.
  Proof.
    induction l as [|[[t ns] h] rest IH]; intros r; [reflexivity|].
    rewrite register_all_cons. simpl. now rewrite IH, register_result.
  Qed.
End RegistryFacts.

(* the documented effect of customize(..., hide, hide_line, prune, elaborate) on a matching frame *)
Definition documented_effect (o : opts) (fr : frame) (next : option string)
           (res : oframe * eret * list call) : Prop :=
  let '(fo, x, cs) := res in
  of_name fo = f_name fr /\
  of_hide fo = o_hide o /\                                   (* hide *)
  of_hide_line fo = o_hide_line o /\                         (* hide_line *)
  (* elaborate: called exactly once with (frame, next_inner), or never if not given *)
  cs = match o_elab o with ENo => [] | ERet tag _ => [(tag, f_name fr, next)] end /\
  (* a replacement returned by elaborate redirects the rest of the stack; prune takes effect
     exactly if elaborate is unspecified or returned None *)
  x = match o_elab o with
      | ERet _ (Some l) => XRepl l
      | _ => if o_prune o then XRepl [] else XNone
      end.

Lemma customize_ok f (r0 : registry hook) t names o c :
  get_code t names = GOk c -> customize f r0 t names o = (id_setitem code_id r0 c (HCustom o), ROk).
Proof.
  intros Hg. destruct f, o; unfold customize, customize_direct, register; simpl; rewrite Hg; reflexivity.
Qed.

Lemma run_custom_effect o fr next : documented_effect o fr next (run_hook (Some (HCustom o)) fr next).
Proof. destruct o as [h hl p [|tag [l|]]]; simpl; repeat split; reflexivity. Qed.

Definition next_name (rest : list frame) : option string :=
  match rest with n :: _ => Some (f_name n) | [] => None end.

Inductive Walk (r : registry hook) : list frame -> list oframe -> list call -> Prop :=
  | W_nil : Walk r [] [] []
  | W_keep fr rest fo cs fs cs' :
      run_hook (dispatch r (f_code fr)) fr (next_name rest) = (fo, XNone, cs) ->
      Walk r rest fs cs' -> Walk r (fr :: rest) (fo :: fs) (cs ++ cs')
  | W_repl fr rest fo l cs fs cs' :
      run_hook (dispatch r (f_code fr)) fr (next_name rest) = (fo, XRepl l, cs) ->
      Walk r l fs cs' -> Walk r (fr :: rest) (fo :: fs) (cs ++ cs').

Lemma walk_nil fuel r : walk fuel r [] = WOk [] [].
Proof. destruct fuel; reflexivity. Qed.

Lemma walk_keep fuel r fr rest fo cs :
  run_hook (dispatch r (f_code fr)) fr (next_name rest) = (fo, XNone, cs) ->
  walk fuel r (fr :: rest) = wcons fo cs (walk fuel r rest).
Proof. unfold next_name. intros H. destruct fuel; simpl; rewrite H; reflexivity. Qed.

Lemma walk_repl_S n r fr rest fo l cs :
  run_hook (dispatch r (f_code fr)) fr (next_name rest) = (fo, XRepl l, cs) ->
  walk (S n) r (fr :: rest) = wcons fo cs (walk n r l).
Proof. unfold next_name. intros H. simpl. rewrite H. reflexivity. Qed.

Lemma wcons_ok fo cs w fs cs' :
  wcons fo cs w = WOk fs cs' -> exists fs0 cs0, w = WOk fs0 cs0 /\ fs = fo :: fs0 /\ cs' = cs ++ cs0.
Proof. destruct w as [fs0 cs0|]; simpl; [|discriminate]. intros [= <- <-]. eauto. Qed.

Lemma walk_with_sound repl r :
  (forall l fs cs, repl l = WOk fs cs -> Walk r l fs cs) ->
  forall st fs cs, walk_with repl r st = WOk fs cs -> Walk r st fs cs.
Proof.
  intros Hrepl. induction st as [|fr rest IH]; intros fs cs; simpl.
  - intros [= <- <-]. constructor.
  - fold (next_name rest).
    destruct (run_hook (dispatch r (f_code fr)) fr (next_name rest)) as [[fo x] cs0] eqn:E.
    destruct x as [|l]; intros H; apply wcons_ok in H as (fs0 & cs1 & Hw & -> & ->).
    + eapply W_keep; eauto.
    + eapply W_repl; eauto.
Qed.

Lemma walk_sound fuel : forall r st fs cs, walk fuel r st = WOk fs cs -> Walk r st fs cs.
Proof.
  induction fuel as [|n IH]; intros r st; apply walk_with_sound; [discriminate|apply IH].
Qed.

Lemma walk_complete r st fs cs :
  Walk r st fs cs -> exists fuel, forall fuel', fuel <= fuel' -> walk fuel' r st = WOk fs cs.
Proof.
  induction 1.
  - exists 0. intros m _. apply walk_nil.
  - destruct IHWalk as (n & Hn). exists n. intros m Hm.
    rewrite (walk_keep _ _ _ _ _ _ H), (Hn m Hm). reflexivity.
  - destruct IHWalk as (n & Hn). exists (S n). intros m Hm.
    destruct m as [|m]; [lia|]. rewrite (walk_repl_S _ _ _ _ _ _ _ H), (Hn m) by lia. reflexivity.
Qed.

(* the reference is a function: both derivations are computed by [walk] with enough fuel *)
Lemma Walk_deterministic r st fs cs fs' cs' :
  Walk r st fs cs -> Walk r st fs' cs' -> fs = fs' /\ cs = cs'.
Proof.
  intros H1 H2. apply walk_complete in H1 as (n & Hn). apply walk_complete in H2 as (n' & Hn').
  specialize (Hn (n + n') ltac:(lia)). specialize (Hn' (n + n') ltac:(lia)).
  rewrite Hn in Hn'. now injection Hn' as -> ->.
Qed.

Lemma walk_fuel_irrelevant fuel fuel' r st fs cs fs' cs' :
  walk fuel r st = WOk fs cs -> walk fuel' r st = WOk fs' cs' -> fs = fs' /\ cs = cs'.
Proof. intros H1 H2. eapply Walk_deterministic; eapply walk_sound; eassumption. Qed.

(* The data of C12_customize_sweep (C12.v): a 3-frame chain whose middle frame is customized,
   every flag combination x elaborate kind, and the stack [walk] is expected to give for each. *)
Definition sweep_code (i : nat) : code := MkCode i "f" [].
Definition sweep_stack : list frame := [Frame 0 "f0" false; Frame 1 "f1" true; Frame 2 "f2" false].
Definition sweep_repl : list frame := [Frame 7 "r0" false].
Definition sweep_elabs : list elab := [ENo; ERet 1 None; ERet 1 (Some sweep_repl); ERet 1 (Some [])].
Definition sweep_expected (o : opts) : wres :=
  let cut := match o_elab o with
             | ERet _ (Some l) => Some l
             | _ => if o_prune o then Some [] else None end in
  WOk ([OFrame "f0" false false; OFrame "f1" (o_hide o) (o_hide_line o)] ++
       match cut with
       | None => [OFrame "f2" false false]
       | Some l => map (fun fr => OFrame (f_name fr) (f_tbhide fr) false) l
       end)
      (match o_elab o with ENo => [] | ERet tag _ => [(tag, "f1"%string, Some "f2"%string)] end).
Definition bools := [false; true].

Open Scope string_scope.
Definition ex_inner_b := MkCode 4 "b" [].
Definition ex_inner_a1 := MkCode 2 "a" [None; Some (MkCode 3 "<lambda>" []); Some ex_inner_b].
Definition ex_inner_a2 := MkCode 5 "a" [].                       (* a later def of the same name *)
Definition ex_top := MkCode 1 "top" [None; Some ex_inner_a1; None; Some ex_inner_a2].
Definition ex_tower :=
  TPartial (TMethod (TWrapped (MkCode 9 "wrapper" []) (TClassM (TWrapped (MkCode 8 "wrapper" []) (TFn ex_top))))).

Example ex_tower_innermost : innermost ex_tower = Some ex_top.
Proof. reflexivity. Qed.
Example ex_nested_first_match : get_code ex_tower ["a"; "b"] = GOk ex_inner_b.
Proof. reflexivity. Qed.
Example ex_nested_resolves : Resolves ex_top ["a"; "b"] 0 (GOk ex_inner_b).
Proof. exact (walk_names_sound ["a"; "b"] 0 ex_top). Qed.
Example ex_nested_too_deep : get_code ex_tower ["b"] = GErr (EValueError 0).   (* b exists only below a *)
Proof. reflexivity. Qed.
Example ex_nested_miss_at_1 : get_code ex_tower ["a"; "nope"] = GErr (EValueError 1).
Proof. reflexivity. Qed.
Example ex_other : get_code (TPartial (TMethod TOther)) [] = GErr ETypeError.
Proof. reflexivity. Qed.

Definition ex_k1 := Key 1 7.
Definition ex_k2 := Key 2 7.       (* equal to ex_k1 (same class), another object *)
Definition ex_dict : kdict := id_init k_id [(Key 3 7, 30); (Key 4 8, 40)].
Example ex_dict_wf : kwf ex_dict.
Proof. apply wf_init. Qed.
Example ex_equal_distinct_hyps :
  k_cls ex_k1 = k_cls ex_k2 /\ k_id ex_k1 <> k_id ex_k2 /\ id_getitem k_id ex_dict ex_k2 = None.
Proof. repeat split. discriminate. Qed.
(* contrast: a dictionary keyed by the keys' own equality would answer the equal key *)
Definition cls_getitem (d : kdict) (k : key) : option nat :=
  option_map (fun e => snd (snd e)) (find (fun e : nat * (key * nat) => (k_cls (fst (snd e)) =? k_cls k)%nat) d).
Example ex_equality_keyed_dict_hits :
  cls_getitem (id_setitem k_id ex_dict ex_k1 5) ex_k2 = Some 30 /\
  id_getitem k_id (id_setitem k_id ex_dict ex_k1 5) ex_k2 = None.
Proof. split; reflexivity. Qed.

Definition ex_opts := Opts true true true (ERet 3 None).
Example ex_customize_hyp : get_code ex_tower ["a"] = GOk ex_inner_a1.
Proof. reflexivity. Qed.
Example ex_customize_walk :
  Walk (fst (customize Decorator [] ex_tower ["a"] ex_opts))
       [Frame 1 "top" false; Frame 2 "a" false; Frame 5 "a" true; Frame 4 "b" false]
       [OFrame "top" false false; OFrame "a" true true] [(3, "a", Some "a")].
Proof. apply (walk_sound 1). reflexivity. Qed.
Example ex_walk_with_replacement :
  Walk (fst (customize Direct [] (TFn ex_top) [] (Opts false true true (ERet 3 (Some [Frame 5 "a" true; Frame 4 "b" false])))))
       [Frame 1 "top" false; Frame 2 "a" false]
       [OFrame "top" false true; OFrame "a" true false; OFrame "b" false false] [(3, "top", Some "a")].
Proof. apply (walk_sound 1). reflexivity. Qed.
