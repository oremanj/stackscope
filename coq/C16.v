(* C16 — Frame.origin and extract_outermost keep their documented contracts. *)
Require Import Base M_Frames M_Frames_Fault P_Frames_Fault M_Frames_Ambient P_Frames_Origin M_Chain P_Chain P_Chain_Origin.

(* a suspended chain g0 -> g1 (generator-like objects 0 and 1 with own frames 0 and 1), a plain
   wrapper object 2 around it, an object 3 without frames, an object 4 whose unwrap raises *)
Definition ex16 : cfg :=
  mkcfg [(0, USeq [Some (IPy 0); Some (IObj 1)]); (1, USeq [Some (IPy 1); None]);
         (2, UOne (IObj 0)); (3, UNone); (4, URaise)]
        [(0, (ENone, false)); (1, (ENone, true))]
        [(0, Build_oattr true true (Some 0)); (1, Build_oattr true true (Some 1));
         (2, Build_oattr true false None); (3, Build_oattr false false None)]
        [(0, CtxOk [7])] [] [] true all_guards 100.

(* extract_outermost x is the first frame of extract x (same frame, hide flag, origin, contexts
   and child stacks); it raises iff extract x has no frames, with the errors recorded *)
Theorem C16_outermost_eq_head : forall c root s,
  extract c root = Ok s ->
  outermost c root = match s_frames s with f :: _ => OFrame f | [] => ORaise (s_errs s) end.
Proof. exact outermost_eq_head. Qed.
Print Assumptions C16_outermost_eq_head.

Example C16_outermost_eq_head_ex :
  extract ex16 (IObj 2) = Ok (Stack [FOut 0 false (Some 0) [COut 7 []]; FOut 1 true (Some 1) []] LNone []) /\
  outermost ex16 (IObj 2) = OFrame (FOut 0 false (Some 0) [COut 7 []]) /\
  outermost ex16 (IObj 3) = ORaise [] /\ outermost ex16 (IObj 4) = ORaise [EUnwrap 4].
Proof. vm_compute. repeat split; reflexivity. Qed.

(* a non-None origin is a generator-like object whose own frame is exactly that frame *)
Theorem C16_origin_is_own_generator : forall c root s fo o,
  extract c root = Ok s -> In fo (s_frames s) -> f_org fo = Some o ->
  gent (attr c o) = true /\ ownf (attr c o) = Some (f_py fo).
Proof. exact extract_origin_ok. Qed.
Print Assumptions C16_origin_is_own_generator.

(* every yielded frame with origin Some o is what extract_outermost o returns (same frame, same
   origin), whatever else the tables do, provided generator-like objects unwrap to their own frame
   first (the built-in glue) and the second call's first hook invocation is not made to fail;
   OFuel / OEscaped (a cyclic table, an unguarded call site) are the only other outcomes *)
Theorem C16_origin_recovers : forall c root s fo o fl,
  gen_wf c -> 1 <= uguard c -> fl 0 = false ->
  extract c root = Ok s -> In fo (s_frames s) -> f_org fo = Some o ->
  match outermost (with_faults c fl) (IObj o) with
  | OFrame fo' => f_py fo' = f_py fo /\ f_org fo' = Some o
  | ORaise _ => False
  | _ => True
  end.
Proof. exact origin_recovers. Qed.
Print Assumptions C16_origin_recovers.

Example C16_origin_recovers_ex :
  gen_wf ex16 /\ 1 <= uguard ex16 /\
  (exists s, extract ex16 (IObj 2) = Ok s /\ In (FOut 1 true (Some 1) []) (s_frames s)) /\
  outermost (with_faults ex16 (fun _ => false)) (IObj 1) = OFrame (FOut 1 true (Some 1) []).
Proof.
  split; [|split; [|split]].
  - intros o f G O. destruct o as [|[|[|[|[|o]]]]]; simpl in *; try discriminate;
      inversion O; subst; (split; [reflexivity|eexists; reflexivity]).
  - vm_compute. lia.
  - eexists. split; [vm_compute; reflexivity|]. simpl. auto.
  - vm_compute. reflexivity.
Qed.

(* looking inside a suspended coroutine / generator / async generator: whatever origin was queued
   for it, the object itself becomes the origin, and its own frame is queued for elaboration with
   that object as origin while what it awaits is unwrapped next (with the object as fallback
   origin) *)
Theorem C16_suspended_chain_origin : forall fuel cnt c o f rest d tu te errs t fb,
  wref (attr c o) = true -> gent (attr c o) = true -> ownf (attr c o) = Some f ->
  unwrap c o = USeq (Some (IPy f) :: rest) ->
  fault c t = false -> (uguard c <? S cnt) = false ->
  better_origin c (QObj o) fb = Some o /\
  flatten (S (S fuel)) cnt c ((Some o, QObj o, d) :: tu) te errs t =
  flatten fuel 0 c (map (fun i => (better_origin c (q_of i) (Some o), q_of i, S d)) (somes rest) ++ tu)
          ((QFr f (Some o), S d) :: te) errs (S t).
Proof.
  intros fuel cnt c o f rest d tu te errs t fb W G O U F L.
  exact (conj (better_origin_gen c o fb W G) (flatten_look_inside fuel cnt c o f rest d tu te errs t G O U F L)).
Qed.
Print Assumptions C16_suspended_chain_origin.

Example C16_suspended_chain_origin_ex :
  wref (attr ex16 0) = true /\ gent (attr ex16 0) = true /\ ownf (attr ex16 0) = Some 0 /\
  unwrap ex16 0 = USeq [Some (IPy 0); Some (IObj 1)] /\ fault ex16 5 = false /\ (uguard ex16 <? 1) = false.
Proof. vm_compute. repeat split; reflexivity. Qed.

(* whole chains (M_Chain, the C03 model: the built-in unwrap rules compiled into an M_Frames.cfg):
   every frame of the extraction of a well-formed suspended await / yield-from chain has as origin
   the generator-like object it was found inside -- the object at that position of the chain is
   a coroutine / generator / async generator link whose own frame is that frame *)
Theorem C16_chain_origins : forall ch sl wc s fo,
  wf_susp ch = true -> is_nil ch = false -> 2 * chain_len ch + 2 <= default_fuel ->
  extract (chain_cfg ch sl wc all_guards 100) chain_root = Ok s -> In fo (s_frames s) ->
  exists o k r next, f_org fo = Some o /\ node_at ch o = Link k (Some (f_py fo)) r next.
Proof. exact chain_origins. Qed.
Print Assumptions C16_chain_origins.

(* ... and extract_outermost(origin) returns that very frame with that origin, for every frame of
   the chain; the hypothesis gen_wf of C16_origin_recovers is discharged for the built-in rules *)
Theorem C16_chain_origin_recovers : forall ch sl wc s fo,
  wf_susp ch = true -> is_nil ch = false -> 2 * chain_len ch + 2 <= default_fuel ->
  extract (chain_cfg ch sl wc all_guards 100) chain_root = Ok s -> In fo (s_frames s) ->
  exists o, f_org fo = Some o /\
    match outermost (chain_cfg ch sl wc all_guards 100) (IObj o) with
    | OFrame fo' => f_py fo' = f_py fo /\ f_org fo' = Some o
    | ORaise _ => False
    | _ => True
    end.
Proof.
  intros ch sl wc s fo W N F E Hin.
  destruct (chain_origins ch sl wc s fo W N F E Hin) as (o & k & r & next & Ho & _).
  exists o. split; [assumption|].
  apply (origin_recovers (chain_cfg ch sl wc all_guards 100) chain_root s fo o (fun _ => false));
    try assumption; try reflexivity.
  - apply chain_gen_wf. assumption.
  - simpl. lia.
Qed.
Print Assumptions C16_chain_origin_recovers.

Theorem C16_builtin_rules_gen_wf : forall ch sl wc g ug, wf_susp ch = true -> gen_wf (chain_cfg ch sl wc g ug).
Proof. exact chain_gen_wf. Qed.
Print Assumptions C16_builtin_rules_gen_wf.

Definition ex_chain : chain :=
  Link KCoro (Some 0) false (CoroWrapper (Link KCoro (Some 1) false (ASend (Link KAGen (Some 2) true (Link KGen (Some 3) false Leaf))))).
Example C16_chain_ex :
  wf_susp ex_chain = true /\ is_nil ex_chain = false /\
  extract (chain_cfg ex_chain (fun _ => []) true all_guards 100) chain_root =
    Ok (Stack [FOut 0 false (Some 0) []; FOut 1 false (Some 2) []; FOut 2 false (Some 4) []; FOut 3 false (Some 5) []]
              (LOne (QObj 6)) []) /\
  outermost (chain_cfg ex_chain (fun _ => []) true all_guards 100) (IObj 4) = OFrame (FOut 2 false (Some 4) []).
Proof. vm_compute. repeat split; reflexivity. Qed.

(* every ambient option state (M_Frames_Ambient: the thread-local cell is None, or Some options of
   an extraction in progress around the call, e.g. when called from a customization hook):
   extract_outermost(x, **arg) is the first frame of extract(x, **arg) made in the same state,
   both restore the cell, and the result does not depend on the ambient state at all *)
Theorem C16_outermost_eq_head_any_ambient : forall cell arg c root s,
  fst (api_extract cell arg c root) = Ok s ->
  fst (api_outermost cell arg c root) = match s_frames s with f :: _ => OFrame f | [] => ORaise (s_errs s) end
  /\ snd (api_outermost cell arg c root) = cell /\ snd (api_extract cell arg c root) = cell
  /\ fst (api_outermost cell arg c root) = fst (api_outermost None arg c root).
Proof.
  intros cell arg c root s.
  destruct (api_ambient_independent cell arg c root) as [E O].
  destruct (api_ambient_independent None arg c root) as [_ O0].
  rewrite E, O, O0. cbn [fst snd]. intros H. repeat split. apply outermost_eq_head. exact H.
Qed.
Print Assumptions C16_outermost_eq_head_any_ambient.

Theorem C16_entry_points_use_own_arguments : forall cell arg c root,
  api_extract cell arg c root = (extract (set_wc c (fst arg)) root, cell) /\
  api_outermost cell arg c root = (outermost (set_wc c (fst arg)) root, cell).
Proof. exact api_ambient_independent. Qed.
Print Assumptions C16_entry_points_use_own_arguments.

Example C16_any_ambient_ex :
  fst (api_outermost (Some (false, false)) (true, false) ex16 (IObj 2)) = OFrame (FOut 0 false (Some 0) [COut 7 []]) /\
  fst (api_outermost (Some (true, true)) (false, false) ex16 (IObj 2)) = OFrame (FOut 0 false (Some 0) []) /\
  fst (api_extract (Some (false, false)) (true, false) ex16 (IObj 2)) =
    Ok (Stack [FOut 0 false (Some 0) [COut 7 []]; FOut 1 true (Some 1) []] LNone []).
Proof. vm_compute. repeat split; reflexivity. Qed.
