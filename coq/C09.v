(* C09 — generator-based managers and exit stacks unfold into the exact nested tree.
   Model functions: M_ExitStack.classify, fill, series — the very functions the generated cases
   files evaluate. *)
Require Import Base M_ExitStack P_ExitStack.

(* For EVERY registration sequence [cbs] (any length, any order, registered managers arbitrary
   trees, falsy managers included) whose callbacks are stored as the modelled contextlib stores
   them and that avoids the registrations contextlib makes indistinguishable (F10): the exit-stack
   context has exactly one child per callback, in registration order (child j carries index j in
   varname and description), its obj is the registered manager / callable, its is_async and the
   method name in its description are those of the registration that was used.  The hypotheses
   are met by a non-trivial sequence: P_ExitStack.ex_seq_hyps. *)
Theorem C09_children_exact : forall n cbs ex r p i oid a nm,
  seq_modelled cbs = true -> seq_nof10 cbs = true ->
  exists kids,
    fill (S (S n)) ex r p i (Wth oid a nm (MStack cbs)) = COut oid a ex None kids i /\
    length kids = length cbs /\
    forall j k falsy x av oself ocb m,
      nth_error cbs j = Some (Cb k falsy x av oself ocb m) ->
      exists inner gk arg,
        nth_error kids j =
          Some (COut (spec_oid k oself ocb) (spec_async k) false inner gk
                     (KChild (spec_sel k) r p j (spec_await k) (spec_meth k) arg))
        /\ (arg = spec_arg k \/ arg = AChildDesc).
Proof.
  intros n cbs ex r p i oid a nm Hm Hn. eexists. split; [apply fill_stack|]. split; [apply mapi_length|].
  intros j k falsy x av oself ocb m Hj. rewrite (child_nth _ _ _ _ _ _ _ _ _ _ _ _ Hm Hn Hj). cbv zeta.
  edestruct (fill_head n false) as (inner & gk & ->). do 3 eexists. split; [reflexivity|].
  destruct (has_desc _); auto.
Qed.
Print Assumptions C09_children_exact.

(* Known finding F10: without the excluding hypothesis the statement fails — push(manager) is
   described as enter_context (sync) and push_async_exit(manager) as an awaited
   enter_async_context. *)
Theorem C09_F10_refuted :
  exists cbs, seq_modelled cbs = true /\ seq_nof10 cbs = false /\
    exists k falsy x av oself ocb m kid,
      nth_error cbs 0 = Some (Cb k falsy x av oself ocb m) /\
      fill 2 false RName [] KTop (Wth 7 false true (MStack cbs)) = COut 7 false false None [kid] KTop /\
      kid_meth kid <> Some (spec_meth k).
Proof.
  exists (f10_witness KPushMgr). split; [reflexivity|]. split; [reflexivity|].
  do 8 eexists. split; [reflexivity|]. split; [reflexivity|]. simpl. discriminate.
Qed.
Print Assumptions C09_F10_refuted.

(* the async half: push_async_exit(manager) comes out as an awaited enter_async_context *)
Theorem C09_F10_refuted_async :
  exists kid, fill 2 false RName [] KTop (Wth 7 true true (MStack (f10_witness KPushAMgr)))
              = COut 7 true false None [kid] KTop /\
              kid_meth kid = Some MEnterA /\ spec_meth KPushAMgr = MPushA /\
              kid_await kid = Some true /\ spec_await KPushAMgr = false.
Proof. eexists. split; [reflexivity|]. repeat split. Qed.
Print Assumptions C09_F10_refuted_async.

(* ... and it is inherent: contextlib stores identical callbacks, so no classifier reading only the
   stored callback can name push(manager) and enter_context both correctly. *)
Theorem C09_F10_inherent : forall (cl : avec -> cls) falsy,
  ~ (c_meth (cl (cl_attrs KPushMgr falsy false)) = spec_meth KPushMgr /\
     c_meth (cl (cl_attrs KEnter falsy false)) = spec_meth KEnter).
Proof. intros cl falsy. apply same_vector_inherent; [reflexivity|discriminate]. Qed.
Print Assumptions C09_F10_inherent.

(* every distinguishable registration form, with a truthy or falsy manager, is classified as itself *)
Theorem C09_classifier : forall k falsy x,
  f10 k x = false -> classify (cl_attrs k falsy x) = spec_cls k.
Proof. exact classify_modelled. Qed.
Print Assumptions C09_classifier.

(* For ALL manager trees of depth <= fuel (plain managers, generator-based managers with or without
   delegation, exit stacks, nested in any way, observed in the body or exiting) the context tree the
   model computes is the tree the property describes: [spec_series], defined by structural
   recursion on the tree — inner_stack = the generator's own frames for a generator-based manager
   that is not exiting, none when it is exiting and then its frames follow in the main series,
   children per registration form, recursively.  The hypotheses are met by a non-trivial tree:
   P_ExitStack.ex_tree_hyps. *)
Theorem C09_tree : forall fuel f,
  depth_frm f <= fuel -> modelled_frm f = true -> nof10_frm f = true ->
  series fuel f = spec_series f.
Proof. intros fuel. apply (unfold_correct fuel). Qed.
Print Assumptions C09_tree.

(* the same for one with-block: its Context, with inner_stack and children, is [spec_mgr] *)
Theorem C09_context : forall fuel m ex r p i oid a nm,
  depth_mgr m <= fuel -> modelled_mgr m = true -> nof10_mgr m = true ->
  fill fuel ex r p i (Wth oid a nm m) = spec_mgr ex r p i oid a m.
Proof. intros fuel m ex r p i oid a nm Hd Hm Hn. apply (unfold_correct fuel); assumption. Qed.
Print Assumptions C09_context.

(* fuel = depth suffices for every tree (no hypothesis on the callbacks): the out-of-fuel values
   CFuel / FFuel occur nowhere in the result *)
Theorem C09_fuel_suffices : forall fuel f,
  depth_frm f <= fuel -> forallb fuel_free_f (series fuel f) = true.
Proof. intros fuel. apply (fuel_suffices fuel). Qed.
Print Assumptions C09_fuel_suffices.

(* read directly off the model, for all inputs: inner_stack unless exiting ... *)
Theorem C09_inner_stack_unless_exiting : forall n ex r p i oid a nm f,
  fill (S n) ex r p i (Wth oid a nm (MGen f))
  = COut oid a ex (if ex then None else Some (series n f)) [] i.
Proof. reflexivity. Qed.
Print Assumptions C09_inner_stack_unless_exiting.

(* ... in which case the manager's frames follow the owner's frame in the main frame series *)
Theorem C09_exiting_frames_in_series : forall n code ws oid a nm g,
  exists cs, series (S (S n)) (Frm code ws (TExit (Wth oid a nm (MGen g))))
             = FOut code (cs ++ [COut oid a true None [] KTop]) :: series (S n) g
             /\ length cs = length ws.
Proof. intros. eexists. split; [reflexivity|]. apply map_length. Qed.
Print Assumptions C09_exiting_frames_in_series.

(* An exit stack observed in the middle of its own __exit__ / __aexit__ (for every sequence of
   callbacks still registered, every popped callback [cur]): the stack's context is exiting, it has
   one child per callback still registered, and every generator-based manager among them is NOT
   exiting — it keeps inner_stack = the extraction of its generator; the frames of the manager
   being exited follow in the main series. *)
Theorem C09_exiting_stack_children : forall n cbs oid a nm code ws cur,
  seq_modelled cbs = true -> seq_nof10 cbs = true ->
  raises (S (S n)) (MStack cbs) = false ->   (* its unfolding does not fail; met by P_ExitStack.ex_mid_exit_hyps *)
  exists cs kids rest,
    series (S (S (S n))) (Frm code ws (TExitS (Wth oid a nm (MStack cbs)) cur))
      = FOut code (cs ++ [COut oid a true None kids KTop]) :: rest /\
    rest = match cur with MGen g => series (S (S n)) g | _ => [] end /\
    length kids = length cbs /\
    forall j k falsy x av oself ocb g,
      nth_error cbs j = Some (Cb k falsy x av oself ocb (MGen g)) -> has_receiver k = true ->
      exists info,
        nth_error kids j = Some (COut oself (spec_async k) false (Some (series n g)) [] info).
Proof.
  intros n cbs oid a nm code ws cur Hm Hn Hrz. do 3 eexists.
  split; [rewrite series_S; unfold top; rewrite Hrz, fill_stack; reflexivity|].
  split; [reflexivity|]. split; [apply mapi_length|].
  intros j k falsy x av oself ocb g Hj Hr. rewrite (child_nth _ _ _ _ _ _ _ _ _ _ _ _ Hm Hn Hj).
  unfold spec_oid. rewrite Hr. eexists. reflexivity.
Qed.
Print Assumptions C09_exiting_stack_children.

(* Concurrent registration: elaborate_exit_stack works on a snapshot of the callback list and
   contextlib only appends, so the children for the callbacks registered at snapshot time are
   exactly a prefix of the children seen after any further registrations (never a partial or empty
   list). *)
Theorem C09_snapshot_prefix : forall n cbs extra ex r p i oid a nm,
  exists kids more,
    fill (S n) ex r p i (Wth oid a nm (MStack cbs)) = COut oid a ex None kids i /\
    fill (S n) ex r p i (Wth oid a nm (MStack (cbs ++ extra))) = COut oid a ex None (kids ++ more) i /\
    length kids = length cbs /\ length more = length extra.
Proof.
  intros. do 2 eexists. split; [reflexivity|]. split; [simpl; rewrite mapi_app; reflexivity|].
  split; apply mapi_length.
Qed.
Print Assumptions C09_snapshot_prefix.

(* Repeated use: the model (like the code) carries nothing from one extraction to the next; after
   any history, including extractions that failed part-way, an extraction yields the unfolding of the
   tree as it is at that moment. *)
Theorem C09_history_stateless : forall fuel pre f post,
  nth_error (extract_seq fuel (pre ++ Some f :: post)) (length pre) = Some (HOk (series fuel f)).
Proof.
  intros. unfold extract_seq. rewrite map_app, nth_error_app2 by (rewrite map_length; lia).
  rewrite map_length, Nat.sub_diag. reflexivity.
Qed.
Print Assumptions C09_history_stateless.

(* Contained faults (extract_iter fills each context inside its own try/except): in every frame,
   the j-th with-block is unfolded from that with-block alone; with-blocks whose unfolding fails
   stay bare and do not disturb the others (example: P_ExitStack.ex_faulty_contained). *)
Theorem C09_fault_contained : forall n code ws,
  exists cs, series (S n) (Frm code ws TStop) = [FOut code cs] /\ length cs = length ws /\
    forall j oid a nm m, nth_error ws j = Some (Wth oid a nm m) ->
      nth_error cs j = Some (if raises n m then COut oid a false None [] KTop
                             else fill n false (if nm then RName else RUnderscore) [] KTop (Wth oid a nm m)).
Proof.
  intros. eexists. split; [reflexivity|]. split; [apply map_length|].
  intros j oid a nm m Hj. erewrite map_nth_error by exact Hj. reflexivity.
Qed.
Print Assumptions C09_fault_contained.

(* ... and which unfoldings fail is what the property-level reading says: exactly the exit stacks
   holding (transitively through registered stacks) a manager or bound-method receiver whose repr
   fails; functions, callbacks and generator-based managers never make it fail. *)
Theorem C09_raises : forall fuel m,
  depth_mgr m <= fuel -> modelled_mgr m = true -> nof10_mgr m = true -> raises fuel m = spec_raises m.
Proof. exact raises_correct. Qed.
Print Assumptions C09_raises.

(* A function registered with push / push_async_exit is described as such whatever it looks like
   (functools.wraps closure over *args/**kwds, a function called _exit_wrapper, ...). *)
Theorem C09_lookalike_is_push : forall lk,
  c_meth (classify (cl_attrs (KPushFn lk) false false)) = MPush /\
  c_meth (classify (cl_attrs (KPushAFn lk) false false)) = MPushA /\
  c_arg (classify (cl_attrs (KPushFn lk) false false)) = AFuncname.
Proof. destruct lk; repeat split. Qed.
Print Assumptions C09_lookalike_is_push.
