(* P_Format.v — lemmas about the formatter model M_Format.v (property C18).

   The formatter's three loops are first rewritten as loops over the visible frames, contexts and
   children ([fmt_body_eq], [fmt_frame_eq], [Cx_eq], [kid_lines_eq]); every marker is put on by
   [pref], a block whose first line gets one marker and the others another.  On this form
   - the first marker of a line says at which level it was added ([B_heads], [KL_heads],
     [Cx_tail_heads]), which is what the parser's [span]s and [blocks] rely on ([blocks_flat]);
   - reading back is an induction on the tree with the longest marker chain as fuel bound
     ([roundtrip]);
   - the strings the code composes are the rendering of the structured lines, as long as the two
     character tests see the lines they are applied to ([is_child_agree], [blank_agree],
     [str_is_render]);
   - the lines are single newline-terminated lines ([lines_oneline]) and their marker chains have
     the shape that makes unicode lexing unique ([chain_all], [render_inj_canon]). *)
Require Import Base M_Format.
From Coq Require Import NArith String Ascii.
From SS.gen Require Import SrcFacts.

Definition opt_P (P : stack -> Prop) (o : option stack) : Prop :=
  match o with Some s => P s | None => True end.

Section TreeInd.
  Variables (Ps : stack -> Prop) (Pf : frame -> Prop) (Pc : context -> Prop) (Pk : child -> Prop).
  Hypothesis Hs : forall r fs lf er, Forall Pf fs -> Ps (Stk r fs lf er).
  Hypothesis Hf : forall f, Forall Pc (f_ctxs f) -> Pf f.
  Hypothesis Hc : forall ty asy ex vn sl ds cs cr orp inn ks h,
      opt_P Ps inn -> Forall Pk ks ->
      Pc (Ctx ty asy ex vn sl ds cs cr orp inn ks h).
  Hypothesis Hkc : forall c, Pc c -> Pk (KCtx c).
  Hypothesis Hks : forall s, Ps s -> Pk (KStk s).

  Fixpoint stack_ind' (s : stack) : Ps s :=
    match s with
    | Stk r fs lf er => Hs r fs lf er (Forall_all frame_ind' fs)
    end
  with frame_ind' (f : frame) : Pf f :=
    match f with
    | Frm fn cls md file ln src loc h hl cs =>
        Hf (Frm fn cls md file ln src loc h hl cs) (Forall_all ctx_ind' cs)
    end
  with ctx_ind' (c : context) : Pc c :=
    match c with
    | Ctx ty asy ex vn sl ds cs cr orp inn ks h =>
        Hc ty asy ex vn sl ds cs cr orp inn ks h
           (match inn as i return opt_P Ps i with Some s => stack_ind' s | None => I end)
           (Forall_all child_ind' ks)
    end
  with child_ind' (k : child) : Pk k :=
    match k with
    | KCtx c => Hkc c (ctx_ind' c)
    | KStk s => Hks s (stack_ind' s)
    end.

  Lemma tree_ind : (forall s, Ps s) /\ (forall f, Pf f) /\ (forall c, Pc c) /\ (forall k, Pk k).
  Proof. repeat split; [apply stack_ind' | apply frame_ind' | apply ctx_ind' | apply child_ind']. Qed.
End TreeInd.

(* the texts of single lines are opaque to the structure of the output *)
Arguments header_text : simpl never.
Arguments frame_header : simpl never.
Arguments ctx_line : simpl never.
Arguments child_root_line : simpl never.

Lemma span_app {A} (p : A -> bool) l1 l2 :
  Forall (fun x => p x = true) l1 ->
  match l2 with [] => True | x :: _ => p x = false end ->
  span p (l1 ++ l2) = (l1, l2).
Proof.
  induction 1 as [|x l Hx Hl IH]; intros H2; simpl.
  - destruct l2 as [|y r]; simpl; auto. rewrite H2. reflexivity.
  - rewrite Hx, (IH H2). reflexivity.
Qed.

Lemma span_all {A} (p : A -> bool) l : Forall (fun x => p x = true) l -> span p l = (l, []).
Proof. intros H. rewrite <- (app_nil_r l) at 1. apply span_app; simpl; auto. Qed.

Lemma flat_map_vis {X Y} (keep : X -> bool) (G G' : X -> list Y) xs :
  (forall x, G x = if keep x then G' x else []) -> flat_map G xs = flat_map G' (filter keep xs).
Proof. intros H. induction xs as [|x xs IH]; simpl; auto. rewrite H, IH. destruct (keep x); reflexivity. Qed.

(* the `if hidden and not show_hidden: continue` of the loops over frames and contexts *)
Lemma flat_map_hide {X Y} (h : X -> bool) (sh : bool) (G : X -> list Y) xs :
  flat_map (fun x => if h x && negb sh then [] else G x) xs
  = flat_map G (filter (fun x => negb (h x) || sh) xs).
Proof. apply flat_map_vis. intros x. destruct (h x), sh; reflexivity. Qed.

Lemma flat_map_keep {X Y} (keep : X -> bool) (G : X -> list Y) xs :
  (forall x, keep x = false -> G x = []) -> flat_map G xs = flat_map G (filter keep xs).
Proof. intros H. apply flat_map_vis. intros x. destruct (keep x) eqn:E; auto. Qed.

Lemma flat_map_single {X Y} (g : X -> Y) xs : flat_map (fun x => [g x]) xs = map g xs.
Proof. induction xs as [|x xs IH]; simpl; [|rewrite IH]; reflexivity. Qed.

Lemma flat_map_filter {X Y} (p : X -> bool) (g : X -> Y) xs :
  flat_map (fun x => if p x then [g x] else []) xs = map g (filter p xs).
Proof. rewrite (flat_map_vis p _ (fun x => [g x])) by reflexivity. apply flat_map_single. Qed.

Lemma map_flat_map_gen {X Y Z} (g : Y -> Z) (F : X -> list Y) (G : X -> list Z) xs :
  (forall x, In x xs -> map g (F x) = G x) -> map g (flat_map F xs) = flat_map G xs.
Proof. induction xs as [|x xs IH]; simpl; auto. intros H. rewrite map_app, H, IH; auto. Qed.

Lemma filter_id {X} (p : X -> bool) l : Forall (fun x => p x = true) l -> filter p l = l.
Proof. induction 1 as [|x l Hx _ IH]; simpl; [|rewrite Hx, IH]; reflexivity. Qed.

Lemma all_some_map {X Y Z} (F : X -> Z) (pf : Z -> option Y) (sk : X -> Y) xs :
  (forall x, In x xs -> pf (F x) = Some (sk x)) -> all_some (map pf (map F xs)) = Some (map sk xs).
Proof. induction xs as [|x xs IH]; simpl; intros H; [reflexivity|]. rewrite H, IH by auto. reflexivity. Qed.

Lemma marker_eqb_refl m : marker_eqb m m = true.
Proof. destruct m; reflexivity. Qed.

Lemma strip1_add m l : strip1 (sl_add m l) = l.
Proof. destruct l; reflexivity. Qed.

Lemma head_is_add p m l : head_is p (sl_add m l) = p m.
Proof. reflexivity. Qed.

Definition pref (A : marker) (g : sline -> marker) (ls : list sline) : list sline :=
  match ls with [] => [] | l0 :: r => sl_add A l0 :: map (fun l => sl_add (g l) l) r end.
Definition gctx (l : sline) : marker := if sl_is_child l then SCC else CCX.

Lemma prefix_block_pref A B ls : prefix_block sline sl_add A B ls = pref A (fun _ => B) ls.
Proof. reflexivity. Qed.

Lemma prefix_ctx_pref ls : prefix_ctx sline sl_add sl_is_child ls = pref SCX gctx ls.
Proof.
  destruct ls as [|l0 r]; simpl; auto. f_equal. apply map_ext. intros l. unfold gctx. destruct (sl_is_child l); reflexivity.
Qed.

Section Blocks.
  Variables (A : marker) (cont : marker -> bool) (g : sline -> marker).
  Hypothesis Hg : forall l, cont (g l) = true /\ marker_eqb A (g l) = false.

  Lemma blocks_aux_cont ls rest pend bs :
    blocks_aux A cont rest = Some (pend, bs) ->
    blocks_aux A cont (map (fun l => sl_add (g l) l) ls ++ rest) = Some (ls ++ pend, bs).
  Proof.
    intros H. induction ls as [|l ls IH]; simpl; auto.
    rewrite IH. rewrite !head_is_add. destruct (Hg l) as [H1 H2]. rewrite H2, H1, strip1_add. reflexivity.
  Qed.

  Lemma blocks_flat {X} (F : X -> list sline) xs :
    (forall x, In x xs -> F x <> []) ->
    blocks A cont (flat_map (fun x => pref A g (F x)) xs) = Some (map F xs).
  Proof.
    intros H. unfold blocks.
    enough (E : blocks_aux A cont (flat_map (fun x => pref A g (F x)) xs) = Some ([], map F xs)) by (rewrite E; reflexivity).
    induction xs as [|x xs IH]; [reflexivity|]. simpl.
    destruct (F x) as [|l0 ls] eqn:E; [destruct (H x (or_introl eq_refl) E)|]. simpl.
    rewrite (blocks_aux_cont ls _ [] (map F xs)) by (apply IH; intros y Hy; apply H; right; exact Hy).
    rewrite head_is_add, marker_eqb_refl, strip1_add, app_nil_r. reflexivity.
  Qed.
End Blocks.

Definition lmax (l : list nat) : nat := fold_right Nat.max 0 l.

Fixpoint ht_stack (s : stack) : nat :=
  let 'Stk _ fs _ _ := s in lmax (map ht_frame fs)
with ht_frame (f : frame) : nat := lmax (map ht_ctx (f_ctxs f))
with ht_ctx (c : context) : nat :=
  let 'Ctx _ _ _ _ _ _ _ _ _ inn ks _ := c in
  S (Nat.max (match inn with Some s => ht_stack s | None => 0 end) (lmax (map ht_child ks)))
with ht_child (k : child) : nat :=
  match k with KCtx c => ht_ctx c | KStk s => S (ht_stack s) end.

Lemma lmax_Forall {X} (h : X -> nat) xs n : lmax (map h xs) <= n -> Forall (fun x => h x <= n) xs.
Proof. induction xs as [|x xs IH]; simpl; intros H; constructor; [lia | apply IH; lia]. Qed.

Notation mm := max_markers.
Lemma mm_cons l r : mm (l :: r) = Nat.max (List.length (fst l)) (mm r).
Proof. reflexivity. Qed.
Lemma mm_app x y : mm (x ++ y) = Nat.max (mm x) (mm y).
Proof. induction x as [|l x IH]; [reflexivity|]. simpl app. rewrite !mm_cons, IH. lia. Qed.
Lemma mm_filter p ls : mm (filter p ls) <= mm ls.
Proof. induction ls as [|l ls IH]; simpl filter; [lia|]. destruct (p l); rewrite !mm_cons; lia. Qed.
Lemma mm_map_add (g : sline -> marker) ls :
  mm (map (fun l => sl_add (g l) l) ls) = match ls with [] => 0 | _ => S (mm ls) end.
Proof.
  induction ls as [|l ls IH]; auto. simpl map. rewrite !mm_cons, IH. simpl. destruct ls; simpl; lia.
Qed.
Lemma mm_pref A g l0 r : mm (pref A g (l0 :: r)) = S (mm (l0 :: r)).
Proof. simpl pref. rewrite !mm_cons, mm_map_add. simpl. destruct r; simpl; lia. Qed.
Lemma mm_item {X} A g (F : X -> list sline) xs x :
  In x xs -> F x <> [] -> mm (F x) < mm (flat_map (fun x => pref A g (F x)) xs).
Proof.
  induction xs as [|y xs IH]; simpl; [tauto|]. rewrite mm_app. intros [->|H] Hne.
  - destruct (F x); [congruence|]. rewrite mm_pref. lia.
  - specialize (IH H Hne). lia.
Qed.

Definition kid_head (m : marker) : bool := match m with SC | CC => true | _ => false end.
Definition node_head (m : marker) : bool := body_head m || kid_head m.
Definition hd_ok (p : marker -> bool) (ls : list sline) : Prop := Forall (fun l => head_is p l = true) ls.

Lemma hd_ok_weaken (p q : marker -> bool) ls : (forall m, p m = true -> q m = true) -> hd_ok p ls -> hd_ok q ls.
Proof.
  intros H. apply Forall_impl. intros [[|m ms] t]; unfold head_is; simpl; auto.
Qed.

Lemma hd_ok_pref p A g ls : p A = true -> (forall l, p (g l) = true) -> hd_ok p (pref A g ls).
Proof.
  intros HA Hg. destruct ls as [|l0 r]; constructor; auto. apply Forall_map, Forall_forall. intros l _. apply Hg.
Qed.

Lemma hd_ok_blocks {X} p A g (F : X -> list sline) xs :
  p A = true -> (forall l, p (g l) = true) -> hd_ok p (flat_map (fun x => pref A g (F x)) xs).
Proof. intros HA Hg. apply Forall_flat_map, Forall_forall. intros x _. apply hd_ok_pref; auto. Qed.

Definition notblank (l : sline) : bool := negb (is_blank_line l).

(* the lines below the first of a child block all carry a marker of their own, so only the
   decoration ([CC] "\n" before the block, "\n" as its last line) is blank *)
Lemma notblank_kid p ls post :
  hd_ok p (tl ls) -> post = [] \/ post = [sl_lit nl] /\ ls <> [] ->
  filter notblank (pref SC (fun _ => CC) (ls ++ post)) = pref SC (fun _ => CC) ls.
Proof.
  intros H Hp. destruct ls as [|l0 rest]; [destruct Hp as [->|[_ Hp]]; [reflexivity | congruence]|].
  simpl. f_equal. rewrite map_app, filter_app.
  replace (filter notblank (map (fun l => sl_add CC l) post)) with (@nil sline) by (destruct Hp as [->|[-> _]]; reflexivity).
  rewrite app_nil_r. apply filter_id, Forall_map. eapply Forall_impl; [|exact H].
  intros [[|m ms] t] Hl; [discriminate Hl | reflexivity].
Qed.

Lemma ctx_cont_ok_pref ls : forallb ctx_cont_ok (pref SCX gctx ls) = true.
Proof.
  destruct ls as [|l0 r]; simpl; auto. apply forallb_forall. intros x Hx.
  apply in_map_iff in Hx as [[[|m ms] t] [<- _]]; [reflexivity|]. destruct m; reflexivity.
Qed.

Lemma forallb_flat_map {X Y} (p : Y -> bool) (F : X -> list Y) xs :
  (forall x, forallb p (F x) = true) -> forallb p (flat_map F xs) = true.
Proof. intros H. induction xs; simpl; auto. rewrite forallb_app, H, IHxs. reflexivity. Qed.

Section FmtEq.
  Variables (L : Type) (lit : text -> L) (add : marker -> L -> L) (ic ib : L -> bool) (sc sh : bool).
  Notation fb := (fmt_body L lit add ic ib sc sh).
  Notation ff := (fmt_frame L lit add ic ib sc sh).
  Notation fc := (fmt_ctx L lit add ic ib sc sh).

  Lemma fmt_body_eq r fs lf er :
    fb (Stk r fs lf er)
    = flat_map (fun f => prefix_block L add SF CF (ff f)) (filter (fun f => negb (f_hide f) || sh) fs)
      ++ leaf_lines L lit add lf ++ err_lines L lit add er.
  Proof. rewrite <- flat_map_hide. reflexivity. Qed.

  Lemma fmt_ctx_hidden hp sl c : negb (c_hide c) || sh = false -> fc hp sl c = [].
  Proof. destruct c as [? ? ? ? ? ? ? ? ? ? ? h]. simpl. destruct h, sh; try discriminate; reflexivity. Qed.

  Lemma fmt_frame_eq f :
    ff f = lit (frame_header f)
           :: flat_map (fun c => prefix_ctx L add ic (fc true true c))
                (if sc then filter (fun c => negb (c_hide c) || sh) (f_ctxs f) else [])
           ++ code_lines L lit add f.
  Proof.
    transitivity (lit (frame_header f)
                  :: (if sc then flat_map (fun c => prefix_ctx L add ic (fc true true c)) (f_ctxs f) else [])
                  ++ code_lines L lit add f); [destruct f; reflexivity|].
    rewrite (flat_map_keep (fun c => negb (c_hide c) || sh) _ (f_ctxs f))
      by (intros c Hc; rewrite fmt_ctx_hidden by exact Hc; reflexivity).
    destruct sc; reflexivity.
  Qed.

  Lemma fmt_ctx_eq hp sl ty asy ex vn sl0 ds cs cr orp inn ks h :
    fc hp sl (Ctx ty asy ex vn sl0 ds cs cr orp inn ks h)
    = if h && negb sh then []
      else lit (ctx_line hp sl (Ctx ty asy ex vn sl0 ds cs cr orp inn ks h))
           :: (match inn with Some s => fb s | None => [] end)
           ++ fmt_kids L lit add ib (fc false false) fb false ks.
  Proof. reflexivity. Qed.
End FmtEq.

Definition nonl (t : text) : bool := forallb (fun c => negb (N.eqb c 10)) t.
Definition oneline (t : text) : bool :=
  match rev t with c :: r => N.eqb c 10 && nonl r | [] => false end.
Lemma nonl_app x y : nonl (x ++ y) = nonl x && nonl y.
Proof. apply forallb_app. Qed.
Lemma nonl_rev x : nonl (rev x) = nonl x.
Proof.
  induction x as [|c x IH]; simpl; auto. rewrite nonl_app, IH. simpl. rewrite andb_true_r. apply andb_comm.
Qed.
Lemma oneline_app x y : nonl x = true -> oneline y = true -> oneline (x ++ y) = true.
Proof.
  unfold oneline. rewrite rev_app_distr. destruct (rev y) as [|c r]; [discriminate|]. simpl.
  intros Hx H. apply andb_true_iff in H as [H1 H2]. rewrite H1, nonl_app, H2, nonl_rev, Hx. reflexivity.
Qed.
Lemma oneline_nl x : nonl x = true -> oneline (x ++ nl) = true.
Proof. intros H. apply oneline_app; auto. Qed.
Lemma nonl_dec n : nonl (dec n) = true.
Proof. unfold dec. induction (N.to_uint n); simpl; auto. Qed.

Lemma splitn_nonl s : forall cur, nonl cur = true -> Forall (fun p => nonl p = true) (splitn cur s).
Proof.
  assert (R : forall cur, nonl cur = true -> nonl (rev cur) = true) by (intros; rewrite nonl_rev; auto).
  induction s as [s IH] using (well_founded_induction (Wf_nat.well_founded_ltof _ (@List.length N))).
  intros cur Hc. destruct s as [|c r]; simpl.
  - destruct cur; repeat constructor. apply (R (n :: cur) Hc).
  - destruct (N.eqb c 13) eqn:E13.
    + destruct r as [|c2 r']; [repeat constructor; auto|].
      destruct (N.eqb c2 10); constructor; auto; apply IH; auto; unfold Wf_nat.ltof; simpl; lia.
    + destruct (is_sep c) eqn:Es.
      * constructor; auto. apply IH; auto. unfold Wf_nat.ltof; simpl; lia.
      * apply IH; [unfold Wf_nat.ltof; simpl; lia|]. simpl. rewrite Hc, andb_true_r.
        destruct (N.eqb c 10) eqn:E10; auto. apply N.eqb_eq in E10. subst c. discriminate Es.
Qed.

Lemma err_sublines_oneline raw : Forall (fun t => oneline t = true) (err_sublines raw).
Proof.
  apply Forall_flat_map, Forall_forall. intros l _. destruct (text_eqb l tb_header); [constructor|].
  apply Forall_map. eapply Forall_impl; [|exact (splitn_nonl l [] eq_refl)]. exact oneline_nl.
Qed.

(* negation of F12's signature: no payload other than the error text contains a newline *)
Definition onl (o : option text) : bool := match o with Some t => nonl t | None => true end.
Fixpoint clean_stack (s : stack) : bool :=
  let 'Stk r fs lf _ := s in onl r && onl lf && forallb clean_frame fs
with clean_frame (f : frame) : bool :=
  let 'Frm fn cls md file _ src _ _ _ cs := f in
  nonl fn && onl cls && onl md && nonl file && nonl src && forallb clean_ctx cs
with clean_ctx (c : context) : bool :=
  let 'Ctx ty _ _ vn _ ds csrc _ _ inn ks _ := c in
  onl ty && onl vn && onl ds && nonl csrc
  && (match inn with Some s => clean_stack s | None => true end)
  && forallb clean_child ks
with clean_child (k : child) : bool :=
  match k with KCtx c => clean_ctx c | KStk s => clean_stack s end.

Ltac split_and :=
  repeat match goal with
         | H : _ && _ = true |- _ => apply andb_true_iff in H; destruct H
         end.

Lemma header_oneline r : onl r = true -> oneline (header_text r) = true.
Proof.
  destruct r as [r|]; intros H; [|reflexivity]. simpl in H.
  unfold header_text. apply oneline_app; [reflexivity|]. apply oneline_app; [exact H|]. apply oneline_nl. reflexivity.
Qed.

Lemma frame_header_oneline f : clean_frame f = true -> oneline (frame_header f) = true.
Proof.
  destruct f as [fn cls md file ln src loc h hl cs]. intros H. simpl in H. split_and.
  unfold frame_header.
  apply oneline_app.
  { destruct cls as [c|]; auto. simpl in * |-. rewrite !nonl_app.
    repeat (apply andb_true_iff; split); auto. }
  apply oneline_app; [reflexivity|]. apply oneline_app.
  { destruct md as [[|x m]|]; simpl in *; auto. }
  apply oneline_app; [reflexivity|]. apply oneline_app; [auto|]. apply oneline_app; [reflexivity|].
  apply oneline_nl. apply nonl_dec.
Qed.

Lemma join_sp_nonl l : forallb nonl l = true -> nonl (join_sp l) = true.
Proof.
  induction l as [|x l IH]; auto. intros H. simpl in H. apply andb_true_iff in H as [H1 H2].
  destruct l as [|y l]; [exact H1|].
  change (join_sp (x :: y :: l)) with (x ++ a " " ++ join_sp (y :: l)).
  rewrite !nonl_app, H1, (IH H2). reflexivity.
Qed.

Lemma name_and_type_nonl c : clean_ctx c = true -> nonl (name_and_type c) = true.
Proof.
  destruct c as [ty asy ex vn sl ds csrc cr orp inn ks hh]. intros H. simpl in H. split_and.
  unfold name_and_type. destruct ty as [t|].
  - rewrite !nonl_app. repeat (apply andb_true_iff; split); auto.
    destruct vn as [[|x v]|]; auto.
  - destruct vn; auto.
Qed.

Lemma ctx_line_oneline hp sl c : clean_ctx c = true -> oneline (ctx_line hp sl c) = true.
Proof.
  intros Hc. pose proof (name_and_type_nonl c Hc) as Hi.
  destruct c as [ty asy ex vn sl0 ds csrc cr orp inn ks hh]. unfold ctx_line.
  set (info := name_and_type _) in *. simpl in Hc. split_and.
  set (lt0 := match sl0 with Some _ => if hp then csrc else [] | None => [] end).
  assert (Hlt0 : nonl lt0 = true) by (unfold lt0; destruct sl0, hp; auto).
  set (lt := if nonempty lt0 then lt0 else _).
  assert (Hl : nonl lt = true).
  { unfold lt. destruct (nonempty lt0); auto. destruct ds as [[|x d]|]; simpl in *; auto; destruct asy; reflexivity. }
  set (parts := (if nonempty info then [info] else []) ++ _).
  assert (Hp : forallb nonl parts = true).
  { unfold parts. rewrite forallb_app. destruct (nonempty info); simpl; rewrite ?Hi; simpl;
      destruct sl0; auto; destruct sl; simpl; auto; rewrite !nonl_app, nonl_dec; reflexivity. }
  apply oneline_nl. destruct (nonempty parts); auto. rewrite !nonl_app, Hl, join_sp_nonl by auto. reflexivity.
Qed.

Lemma clean_stack_inv r fs lf er : clean_stack (Stk r fs lf er) = true ->
  onl r = true /\ onl lf = true /\ forall f, In f fs -> clean_frame f = true.
Proof.
  simpl. intros H. apply andb_true_iff in H as [H Hf]. apply andb_true_iff in H as [Hr Hl].
  rewrite forallb_forall in Hf. auto.
Qed.

Lemma clean_frame_inv f : clean_frame f = true ->
  oneline (frame_header f) = true /\ nonl (frame_linetext f) = true /\ forall c, In c (f_ctxs f) -> clean_ctx c = true.
Proof.
  intros H. split; [apply frame_header_oneline, H|]. destruct f as [fn cls md file ln src loc h hl cs].
  simpl in H. apply andb_true_iff in H as [H Hc]. apply andb_true_iff in H as [_ Hs].
  rewrite forallb_forall in Hc. split; [|exact Hc]. simpl. destruct (N.eqb ln 0 || hl); auto.
Qed.

Lemma clean_ctx_inv ty asy ex vn sl0 ds cs cr orp inn ks h :
  clean_ctx (Ctx ty asy ex vn sl0 ds cs cr orp inn ks h) = true ->
  match inn with Some s => clean_stack s = true | None => True end /\ forallb clean_child ks = true.
Proof.
  simpl. intros H. apply andb_true_iff in H as [H Hk]. apply andb_true_iff in H as [_ Hi].
  split; [destruct inn|]; auto.
Qed.

Lemma render_oneline asc l : oneline (snd l) = true -> oneline (render asc l) = true.
Proof.
  intros H. unfold render. apply oneline_app; auto.
  induction (fst l) as [|m ms IH]; simpl; auto. rewrite nonl_app, IH, andb_true_r. destruct asc, m; reflexivity.
Qed.

(* CC and ERR are the same two blanks; every other prepended marker is a different string *)
Definition canon (m : marker) : marker := match m with ERR => CC | CCI => SC | m => m end.
Definition bfree (b : text) : bool :=
  forallb (fun m => negb (prefix_b (mstr false m) b)) [SF;CF;SL;SCX;CCX;SCC;SCODE;SC;CC].
Fixpoint chain_ok (ms : list marker) (b : text) : bool :=
  match ms with
  | [] => true
  | [ERR] => true
  | [CC] => text_eqb b nl
  | ERR :: _ => false
  | CCI :: _ => false
  | _ :: r => chain_ok r b
  end.
(* an error line is not empty (an empty error subline under a child is rendered exactly like
   the blank line around a populated child stack: see C18_lex_blank_refuted) *)
Fixpoint err_nb (ms : list marker) (b : text) : bool :=
  match ms with
  | [] => true
  | [ERR] => negb (text_eqb b nl)
  | _ :: r => err_nb r b
  end.

Notation CK := (fun l : sline => chain_ok (fst l) (snd l) = true).
Definition plain (m : marker) : bool := match m with CC | ERR | CCI => false | _ => true end.

Lemma CK_add_plain m l : plain m = true -> CK l -> CK (sl_add m l).
Proof. destruct l as [ms b]. destruct m; simpl; try discriminate; auto. Qed.
Lemma CK_add_CC p l : head_is p l = true -> CK l -> CK (sl_add CC l).
Proof. destruct l as [[|m ms] b]; unfold head_is; simpl; [discriminate|auto]. Qed.

Lemma CK_pref_plain A g ls :
  plain A = true -> (forall l, plain (g l) = true) -> Forall CK ls -> Forall CK (pref A g ls).
Proof.
  intros HA Hg [|l0 r H0 Hr]; constructor; [apply CK_add_plain; auto|]. apply Forall_map.
  eapply Forall_impl; [|exact Hr]. intros l. apply CK_add_plain, Hg.
Qed.

Lemma CK_pref_kid p ls post :
  Forall CK ls -> hd_ok p (tl ls) -> post = [] \/ post = [sl_lit nl] /\ ls <> [] ->
  Forall CK (pref SC (fun _ => CC) (ls ++ post)).
Proof.
  intros Hc Hh Hp. destruct Hc as [|l0 r H0 Hr]; [destruct Hp as [->|[_ Hp]]; [constructor | congruence]|].
  simpl. constructor; [exact H0|]. rewrite map_app. apply Forall_app; split.
  - apply Forall_map, Forall_forall. intros l Hl.
    apply (CK_add_CC p); [eapply Forall_forall in Hh | eapply Forall_forall in Hr]; eauto.
  - destruct Hp as [->|[-> _]]; repeat constructor.
Qed.

Section Lines.
  Variable o : fopts.
  Notation B := (fmt_body_sl o).
  Notation Fm := (fmt_frame_sl o).
  Notation Cx := (fmt_ctx_sl o).
  Notation KL := (fmt_kids sline sl_lit sl_add sl_is_blank (Cx false false) B).
  Notation visf := (fun f => vis o (f_hide f)).
  Notation visc := (fun c => vis o (c_hide c)).

  Lemma vis_hide h : (h && negb (show_hidden o)) = negb (vis o h).
  Proof. unfold vis. destruct h, (show_hidden o); reflexivity. Qed.

  Lemma B_eq r fs lf er :
    B (Stk r fs lf er) =
    flat_map (fun f => pref SF (fun _ => CF) (Fm f)) (filter visf fs)
    ++ leaf_lines sline sl_lit sl_add lf ++ err_lines sline sl_lit sl_add er.
  Proof. apply fmt_body_eq. Qed.

  Lemma Cx_eq hp sl ty asy ex vn sl0 ds cs cr orp inn ks h :
    Cx hp sl (Ctx ty asy ex vn sl0 ds cs cr orp inn ks h)
    = if vis o h
      then sl_lit (ctx_line hp sl (Ctx ty asy ex vn sl0 ds cs cr orp inn ks h))
           :: (match inn with Some s => B s | None => [] end) ++ KL false ks
      else [].
  Proof.
    unfold fmt_ctx_sl. rewrite fmt_ctx_eq, vis_hide. destruct (vis o h); reflexivity.
  Qed.

  Lemma Cx_visible hp sl c : vis o (c_hide c) = true -> Cx hp sl c = sl_lit (ctx_line hp sl c) :: tl (Cx hp sl c).
  Proof. destruct c. rewrite Cx_eq. simpl. intros ->. reflexivity. Qed.

  Definition vctxs (f : frame) : list context := if show_ctx o then filter visc (f_ctxs f) else [].
  Lemma vctxs_In c f : In c (vctxs f) -> In c (f_ctxs f) /\ vis o (c_hide c) = true.
  Proof. unfold vctxs. destruct (show_ctx o); [apply filter_In | contradiction]. Qed.

  Lemma Fm_eq f :
    Fm f = sl_lit (frame_header f)
           :: flat_map (fun c => pref SCX gctx (Cx true true c)) (vctxs f) ++ code_lines sline sl_lit sl_add f.
  Proof.
    unfold fmt_frame_sl. rewrite fmt_frame_eq. do 2 f_equal. apply flat_map_ext. intros c. apply prefix_ctx_pref.
  Qed.

  Lemma sk_of_frame_eq f :
    sk_of_frame o f
    = SkFrame (frame_header f) (map (sk_of_ctx o true true) (vctxs f))
              (if last_exiting (f_ctxs f) then None
               else if nonempty (frame_linetext f) then Some (frame_linetext f ++ nl) else None).
  Proof. destruct f. unfold vctxs. simpl. destruct (show_ctx o); [rewrite flat_map_filter|]; reflexivity. Qed.

  Lemma gctx_ok l : ctx_cont (gctx l) = true /\ marker_eqb SCX (gctx l) = false.
  Proof. unfold gctx. destruct (sl_is_child l); split; reflexivity. Qed.

  Definition core (k : child) : list sline :=
    match k with KCtx c => Cx false false c | KStk s => sl_lit (child_root_line (s_root s)) :: B s end.
  Definition keepk (k : child) : bool := match k with KCtx c => vis o (c_hide c) | KStk _ => true end.
  Definition skk (k : child) : sk_node :=
    match k with
    | KCtx c => sk_of_ctx o false false c
    | KStk s => SkNode (child_root_line (s_root s)) (sk_body o s) []
    end.

  Lemma core_hidden k : keepk k = false -> core k = [].
  Proof. destruct k as [[]|]; [|discriminate]. simpl. rewrite Cx_eq. intros ->. reflexivity. Qed.
  Lemma core_visible k : keepk k = true -> core k <> [].
  Proof. destruct k as [c|s]; simpl; intros H; [rewrite (Cx_visible _ _ _ H)|]; discriminate. Qed.

  Lemma kid_lines_eq db k : exists pre post,
    kid_lines sline sl_lit sl_add (Cx false false) B db k = (pre, core k ++ post)
    /\ (pre = [] \/ pre = [sl_add CC (sl_lit nl)])
    /\ (post = [] \/ post = [sl_lit nl] /\ core k <> []).
  Proof.
    destruct k as [c|s]; simpl; [|destruct (nonempty (s_frames s))].
    - exists [], []. rewrite app_nil_r. auto.
    - exists (if db then [] else [sl_add CC (sl_lit nl)]), [sl_lit nl]. destruct db; repeat split; auto; right; split; auto; discriminate.
    - exists [], []. rewrite app_nil_r. auto.
  Qed.

  Lemma B_heads s : hd_ok body_head (B s).
  Proof.
    destruct s as [r fs lf er]. rewrite B_eq. apply Forall_app; split; [|apply Forall_app; split].
    - apply hd_ok_blocks; auto.
    - destruct lf; repeat constructor.
    - destruct er; constructor; [reflexivity|]. apply Forall_map, Forall_forall. reflexivity.
  Qed.

  Lemma KL_Forall (P : sline -> Prop) ks :
    P (sl_add CC (sl_lit nl)) ->
    (forall k post, In k ks -> post = [] \/ post = [sl_lit nl] /\ core k <> [] ->
       Forall P (pref SC (fun _ => CC) (core k ++ post))) ->
    forall db, Forall P (KL db ks).
  Proof.
    intros Hb Hk. induction ks as [|k ks IH]; intros db; simpl; [constructor|].
    destruct (kid_lines_eq db k) as (pre & post & -> & Hpre & Hpost). simpl fst. simpl snd.
    apply Forall_app; split; [destruct Hpre as [->| ->]; repeat constructor; exact Hb|].
    apply Forall_app; split; [rewrite prefix_block_pref; apply Hk; [left; reflexivity | exact Hpost]|].
    apply IH. intros k' p' Hin. apply Hk. right. exact Hin.
  Qed.

  Lemma KL_heads ks db : hd_ok kid_head (KL db ks).
  Proof. apply KL_Forall; [reflexivity | intros; apply hd_ok_pref; auto]. Qed.

  Lemma Cx_tail_heads hp sl c : hd_ok node_head (tl (Cx hp sl c)).
  Proof.
    destruct c as [ty asy ex vn sl0 ds cs cr orp inn ks h]. rewrite Cx_eq. destruct (vis o h); [|constructor].
    apply Forall_app; split.
    - eapply hd_ok_weaken; [|destruct inn; [apply B_heads | constructor]]. intros m Hm. unfold node_head. rewrite Hm. reflexivity.
    - eapply hd_ok_weaken; [|apply KL_heads]. intros m Hm. unfold node_head. rewrite Hm. apply orb_true_r.
  Qed.

  Lemma core_tail_heads k : hd_ok node_head (tl (core k)).
  Proof.
    destruct k as [c|s]; [apply Cx_tail_heads|]. eapply hd_ok_weaken; [|apply B_heads].
    intros m Hm. unfold node_head. rewrite Hm. reflexivity.
  Qed.

  Lemma KL_notblank ks : forall db,
    filter notblank (KL db ks) = flat_map (fun k => pref SC (fun _ => CC) (core k)) (filter keepk ks).
  Proof.
    intros db. rewrite <- (flat_map_keep keepk) by (intros k Hk; rewrite core_hidden; auto).
    revert db. induction ks as [|k ks IH]; intros db; simpl; [reflexivity|].
    destruct (kid_lines_eq db k) as (pre & post & -> & Hpre & Hpost). simpl fst. simpl snd.
    rewrite prefix_block_pref, !filter_app, IH, (notblank_kid node_head) by auto using core_tail_heads.
    destruct Hpre as [->| ->]; reflexivity.
  Qed.

  Lemma err_lines_parse er :
    forallb (fun l : list marker * text => match fst l with [ERR] => true | _ => false end) (err_lines sline sl_lit sl_add er) = true
    /\ map snd (err_lines sline sl_lit sl_add er)
       = match er with Some raw => err_title :: err_sublines raw | None => [] end.
  Proof.
    destruct er as [raw|]; [|split; reflexivity]. simpl. rewrite map_map, map_id. split; [|reflexivity].
    apply forallb_forall. intros x Hx. apply in_map_iff in Hx as [l [<- _]]. reflexivity.
  Qed.

  Lemma sk_body_eq r fs lf er :
    sk_body o (Stk r fs lf er)
    = SkStack (map (sk_of_frame o) (filter visf fs)) (match lf with Some l => Some (l ++ nl) | None => None end)
              (map snd (err_lines sline sl_lit sl_add er)).
  Proof. rewrite (proj2 (err_lines_parse er)). simpl. rewrite flat_map_filter. reflexivity. Qed.

  Lemma parse_node_spec n line BL KLs inner bs ks :
    hd_ok body_head BL -> hd_ok kid_head KLs ->
    parse_body (parse_node n) BL = Some inner ->
    blocks SC (is_m CC) (filter notblank KLs) = Some bs ->
    all_some (map (parse_node n) bs) = Some ks ->
    parse_node (S n) (sl_lit line :: BL ++ KLs) = Some (SkNode line inner ks).
  Proof.
    intros H1 H2 H3 H4 H5. simpl. unfold sl_lit.
    rewrite span_app; [ | exact H1 | ].
    - rewrite H3. fold notblank. rewrite H4, H5. reflexivity.
    - destruct H2 as [|[[|m ms] t] r H2 _]; auto. destruct m; auto; discriminate H2.
  Qed.

  (* the fuel needed is the longest marker chain: every level of nesting puts one marker on.
     Every case goes the way the parser does: [span_app] cuts off the lines of the items of one
     level (their first markers are known: [hd_ok_blocks]), [blocks_flat] cuts them into one block
     per item, [all_some_map] parses each block by the induction hypothesis, whose fuel bound
     comes from [mm_item] (an item has one marker less than its block); what follows the items
     (leaf and error lines, the code line, the children without their blank decoration) is read
     off directly. *)
  Lemma roundtrip_all :
    (forall s n, mm (B s) <= S n -> parse_body (parse_node n) (B s) = Some (sk_body o s))
    /\ (forall f n, mm (Fm f) <= n -> parse_frame (parse_node n) (Fm f) = Some (sk_of_frame o f))
    /\ (forall c hp sl n, vis o (c_hide c) = true -> mm (Cx hp sl c) < n ->
          parse_node n (Cx hp sl c) = Some (sk_of_ctx o hp sl c))
    /\ (forall k n, keepk k = true -> mm (core k) < n -> parse_node n (core k) = Some (skk k)).
  Proof.
    apply tree_ind.
    - intros r fs lf er HF n Hn. rewrite Forall_forall in HF. rewrite B_eq in Hn |- *. rewrite mm_app in Hn.
      assert (Hne : forall f, In f (filter visf fs) -> Fm f <> []) by (intros f _; rewrite Fm_eq; discriminate).
      pose proof (proj1 (err_lines_parse er)) as E1. unfold parse_body.
      rewrite span_app; [ | apply hd_ok_blocks; auto | destruct lf, er; reflexivity ].
      rewrite (blocks_flat SF (is_m CF) (fun _ => CF)), (all_some_map Fm _ (sk_of_frame o));
        [ | | split; reflexivity | exact Hne ].
      + rewrite sk_body_eq. destruct lf; [|destruct er]; simpl in E1 |- *; rewrite ?E1; reflexivity.
      + intros f Hin. apply HF; [apply filter_In in Hin; tauto|].
        pose proof (mm_item SF (fun _ => CF) Fm _ f Hin (Hne f Hin)). lia.
    - intros f HC n Hn. rewrite Forall_forall in HC.
      rewrite Fm_eq in Hn |- *. rewrite mm_cons, mm_app in Hn.
      assert (Hne : forall c, In c (vctxs f) -> Cx true true c <> []).
      { intros c Hin. apply vctxs_In in Hin as [_ Hv]. rewrite (Cx_visible _ _ _ Hv). discriminate. }
      unfold parse_frame, sl_lit.
      rewrite span_app;
        [ | apply hd_ok_blocks; [reflexivity | intros l; rewrite (proj1 (gctx_ok l)); apply orb_true_r]
          | unfold code_lines; destruct (last_exiting _); [exact I|]; destruct (nonempty _); [reflexivity | exact I] ].
      rewrite (forallb_flat_map ctx_cont_ok), (blocks_flat SCX ctx_cont gctx gctx_ok),
        (all_some_map (Cx true true) _ (sk_of_ctx o true true));
        [ | | exact Hne | intros c; apply ctx_cont_ok_pref ].
      + rewrite sk_of_frame_eq. unfold code_lines. destruct (last_exiting _); [reflexivity|].
        destruct (nonempty _); reflexivity.
      + intros c Hin. pose proof (mm_item SCX gctx (Cx true true) _ c Hin (Hne c Hin)).
        apply vctxs_In in Hin as [Hin Hv]. apply (HC c Hin true true n Hv). lia.
    - intros ty asy ex vn sl0 ds cs cr orp inn ks h Hi Hk hp sl [|n] Hv Hn; [lia|]. simpl in Hv. rewrite Forall_forall in Hk.
      rewrite Cx_eq, Hv in Hn |- *. rewrite mm_cons, mm_app in Hn.
      pose proof (mm_filter notblank (KL false ks)) as Hle. rewrite KL_notblank in Hle.
      assert (HB : hd_ok body_head (match inn with Some s => B s | None => [] end))
        by (destruct inn; [apply B_heads | constructor]).
      assert (HP : parse_body (parse_node n) (match inn with Some s => B s | None => [] end)
                   = Some (match inn with Some s => sk_body o s | None => SkStack [] None [] end))
        by (destruct inn; [apply Hi; lia | reflexivity]).
      erewrite parse_node_spec;
        [ | exact HB | apply KL_heads | exact HP
          | rewrite KL_notblank; apply blocks_flat; [split; reflexivity | intros k Hin; apply core_visible; apply filter_In in Hin; tauto]
          | apply all_some_map ].
      + simpl. do 2 f_equal. rewrite <- (flat_map_filter keepk skk). apply flat_map_ext. intros [c'|s]; reflexivity.
      + intros k Hin. pose proof (mm_item SC (fun _ => CC) core _ k Hin) as Hlt.
        apply filter_In in Hin as [Hin Hkeep]. apply (Hk k Hin); auto.
        specialize (Hlt (core_visible k Hkeep)). lia.
    - intros c H n. apply H.
    - intros s HR [|n] _ Hn; [lia|]. cbn [core skk] in *. rewrite mm_cons in Hn. rewrite <- (app_nil_r (B s)).
      apply parse_node_spec with (bs := []); try constructor; auto using B_heads. apply HR. lia.
  Qed.

  Theorem roundtrip_fuel s n :
    mm (fmt_stack_sl o s) <= S n -> read_back_fuel n (fmt_stack_sl o s) = Some (skeleton_visible o s).
  Proof.
    intros Hn. change (fmt_stack_sl o s) with (sl_lit (header_text (s_root s)) :: B s) in *.
    rewrite mm_cons in Hn. unfold read_back_fuel, sl_lit. rewrite (proj1 roundtrip_all s n) by lia. reflexivity.
  Qed.

  Theorem roundtrip s : read_back (fmt_stack_sl o s) = Some (skeleton_visible o s).
  Proof. unfold read_back. apply roundtrip_fuel. lia. Qed.

  Let asc := M_Format.ascii o.
  Notation R := (render asc).
  Notation Bs := (fmt_body text (fun t => t) (str_add asc) (str_is_child asc) all_space (show_ctx o) (show_hidden o)).
  Notation Fs := (fmt_frame text (fun t => t) (str_add asc) (str_is_child asc) all_space (show_ctx o) (show_hidden o)).
  Notation Cs := (fmt_ctx text (fun t => t) (str_add asc) (str_is_child asc) all_space (show_ctx o) (show_hidden o)).
  Notation KLs := (fmt_kids text (fun t => t) (str_add asc) all_space (Cs false false) Bs).

  Lemma R_lit t : R (sl_lit t) = t.
  Proof. reflexivity. Qed.
  Lemma R_add m l : R (sl_add m l) = str_add asc m (R l).
  Proof. unfold render, str_add, sl_add. simpl. rewrite app_assoc. reflexivity. Qed.

  (* the column that `startswith(child_context_indicator)` looks at holds a body or child marker;
     among these only start_child is spelled like the indicator *)
  Lemma is_child_agree l : head_is node_head l = true -> str_is_child asc (R l) = sl_is_child l.
  Proof.
    destruct l as [[|m ms] t]; unfold head_is; simpl; [discriminate|]. intros H.
    unfold str_is_child, sl_is_child, render. simpl. rewrite <- app_assoc.
    unfold asc. destruct (M_Format.ascii o), m; try discriminate H; reflexivity.
  Qed.

  Definition solid (m : marker) : bool := match m with SF | CF | SL | SCX | SC | SCODE => true | _ => false end.
  (* lines on which the character test `not line.strip()` and the marker test [sl_is_blank] agree:
     all markers blank, or one that is never blank (continue_context and start_child_context are
     blank in ascii mode only) *)
  Definition good (l : sline) : Prop := forallb spacey (fst l) = true \/ existsb solid (fst l) = true.

  Lemma all_space_app x y : all_space (x ++ y) = all_space x && all_space y.
  Proof. apply forallb_app. Qed.

  Lemma spacey_space ms : forallb spacey ms = true -> all_space (flat_map (mstr asc) ms) = true.
  Proof.
    induction ms as [|m ms IH]; simpl; auto. intros H. apply andb_true_iff in H as [H1 H2].
    rewrite all_space_app, IH by auto. unfold asc. destruct (M_Format.ascii o), m; try discriminate H1; reflexivity.
  Qed.

  Lemma solid_nonspace ms :
    existsb solid ms = true -> all_space (flat_map (mstr asc) ms) = false /\ forallb spacey ms = false.
  Proof.
    induction ms as [|m ms IH]; simpl; [discriminate|]. intros H. rewrite all_space_app.
    apply orb_true_iff in H as [H|H].
    - replace (all_space (mstr asc m)) with false; [destruct m; try discriminate H; auto|].
      unfold asc. destruct (M_Format.ascii o), m; try discriminate H; reflexivity.
    - destruct (IH H) as [-> ->]. rewrite !andb_false_r. auto.
  Qed.

  Lemma blank_agree l : good l -> all_space (R l) = sl_is_blank l.
  Proof.
    destruct l as [ms t]. unfold good, render, sl_is_blank. simpl. rewrite all_space_app. intros [H|H].
    - rewrite (spacey_space ms H), H. reflexivity.
    - destruct (solid_nonspace ms H) as [-> ->]. reflexivity.
  Qed.

  Lemma good_add m l : solid m = true \/ (spacey m = true /\ good l) -> good (sl_add m l).
  Proof.
    unfold good. simpl. intros [H|[H [G|G]]].
    - right. rewrite H. reflexivity.
    - left. rewrite H, G. reflexivity.
    - right. rewrite G. apply orb_true_r.
  Qed.

  Lemma good_lit t : good (sl_lit t).
  Proof. left. reflexivity. Qed.

  Lemma good_pref A Bm ls :
    solid A = true -> solid Bm = true \/ (spacey Bm = true /\ Forall good ls) ->
    Forall good (prefix_block sline sl_add A Bm ls).
  Proof.
    intros HA HB. destruct ls as [|l0 r]; constructor; [apply good_add; auto|]. apply Forall_map.
    destruct HB as [HB|[HB Hr]]; [apply Forall_forall; intros | apply Forall_inv_tail in Hr; eapply Forall_impl; [|exact Hr]; intros];
      apply good_add; auto.
  Qed.

  Lemma map_prefix_block A Bm ls :
    map R (prefix_block sline sl_add A Bm ls) = prefix_block text (str_add asc) A Bm (map R ls).
  Proof.
    destruct ls as [|l0 r]; simpl; auto. rewrite R_add, !map_map. f_equal. apply map_ext. intros. apply R_add.
  Qed.

  Lemma map_prefix_ctx ls : hd_ok node_head (tl ls) ->
    map R (prefix_ctx sline sl_add sl_is_child ls) = prefix_ctx text (str_add asc) (str_is_child asc) (map R ls).
  Proof.
    destruct ls as [|l0 r]; simpl; auto. intros H. rewrite R_add, !map_map. f_equal.
    apply map_ext_in. intros l Hl. eapply Forall_forall in H; eauto. rewrite (is_child_agree l H).
    destruct (sl_is_child l); apply R_add.
  Qed.

  Lemma last_blank_agree sub : Forall good sub ->
    last_blank text all_space (map R sub) = last_blank sline sl_is_blank sub.
  Proof.
    intros H. unfold last_blank, last_opt. rewrite <- map_rev. apply Forall_rev in H.
    destruct H; [reflexivity | apply blank_agree; assumption].
  Qed.

  Lemma map_kid_lines db k :
    map R (core k) = match k with KCtx c => Cs false false c | KStk s => child_root_line (s_root s) :: Bs s end ->
    let sub := kid_lines sline sl_lit sl_add (Cx false false) B db k in
    kid_lines text (fun t => t) (str_add asc) (Cs false false) Bs db k = (map R (fst sub), map R (snd sub)).
  Proof.
    destruct k as [c|s]; simpl; intros E; [rewrite E; reflexivity|]. injection E as E.
    destruct (nonempty (s_frames s)), db; simpl; rewrite ?map_app, E; reflexivity.
  Qed.

  Notation Qk := (fun k => Forall good (core k)
    /\ map R (core k) = match k with KCtx c => Cs false false c | KStk s => child_root_line (s_root s) :: Bs s end).

  Lemma str_kids ks : Forall Qk ks -> forall db, Forall good (KL db ks) /\ map R (KL db ks) = KLs db ks.
  Proof.
    induction 1 as [|k ks [G E] _ IH]; intros db; simpl; [split; [constructor|reflexivity]|].
    rewrite (map_kid_lines db k E). cbv zeta. simpl fst. simpl snd.
    destruct (kid_lines_eq db k) as (pre & post & -> & Hpre & Hpost). simpl fst. simpl snd.
    assert (G0 : Forall good pre) by (destruct Hpre as [->| ->]; repeat constructor).
    assert (G1 : Forall good (core k ++ post)).
    { apply Forall_app; split; [exact G|]. destruct Hpost as [->|[-> _]]; repeat constructor. }
    split.
    - apply Forall_app; split; [exact G0|]. apply Forall_app; split; [apply good_pref; auto | apply IH].
    - rewrite last_blank_agree, (map_app R pre), (map_app R (prefix_block _ _ _ _ _)), map_prefix_block by exact G1.
      rewrite (proj2 (IH _)). reflexivity.
  Qed.

  Lemma str_all :
    (forall s, Forall good (B s) /\ map R (B s) = Bs s)
    /\ (forall f, map R (Fm f) = Fs f)
    /\ (forall c hp sl, Forall good (Cx hp sl c) /\ map R (Cx hp sl c) = Cs hp sl c)
    /\ (forall k, Qk k).
  Proof.
    apply tree_ind.
    - intros r fs lf er HF. rewrite Forall_forall in HF. unfold fmt_body_sl. rewrite !fmt_body_eq. split.
      + apply Forall_app; split; [|apply Forall_app; split].
        * apply Forall_flat_map, Forall_forall. intros f _. apply good_pref; auto.
        * destruct lf; constructor; [apply good_add; auto | constructor].
        * destruct er; constructor; [|apply Forall_map, Forall_forall; intros];
            apply good_add; right; split; auto using good_lit.
      + rewrite !map_app. f_equal; [|f_equal].
        * apply map_flat_map_gen. intros f Hin. rewrite map_prefix_block. f_equal. apply HF. apply filter_In in Hin. tauto.
        * destruct lf; simpl; [rewrite R_add|]; reflexivity.
        * destruct er; simpl; [|reflexivity]. rewrite map_map. reflexivity.
    - intros f HC. rewrite Forall_forall in HC. unfold fmt_frame_sl. rewrite !fmt_frame_eq.
      simpl map. f_equal. rewrite map_app. f_equal.
      + apply map_flat_map_gen. intros c Hin. apply vctxs_In in Hin as [Hin Hv].
        rewrite map_prefix_ctx by apply Cx_tail_heads. f_equal. apply HC, Hin.
      + unfold code_lines. destruct (last_exiting _); [reflexivity|].
        destruct (nonempty _); simpl; [rewrite R_add|]; reflexivity.
    - intros ty asy ex vn sl0 ds cs cr orp inn ks h Hi Hk hp sl. unfold fmt_ctx_sl. rewrite !fmt_ctx_eq.
      destruct (h && negb (show_hidden o)); [split; [constructor|reflexivity]|].
      destruct (str_kids ks Hk false) as [GK EK]. split.
      + constructor; [apply good_lit|]. apply Forall_app; split; [|exact GK]. destruct inn; [apply Hi|constructor].
      + simpl map. f_equal. rewrite map_app. f_equal; [|exact EK]. destruct inn; [apply Hi|reflexivity].
    - intros c H. apply (H false false).
    - intros s [G E]. split; [constructor; [apply good_lit | exact G] | simpl; rewrite E; reflexivity].
  Qed.

  Theorem str_is_render s : fmt_stack_str o s = map R (fmt_stack_sl o s).
  Proof.
    unfold fmt_stack_str, fmt_stack_sl, fmt_stack. simpl map. f_equal. symmetry. apply str_all.
  Qed.

  Notation OL := (fun l : sline => oneline (snd l) = true).

  Lemma OL_pref A g ls : Forall OL ls -> Forall OL (pref A g ls).
  Proof. intros [|l0 r H0 Hr]; constructor; [exact H0|]. apply Forall_map. exact Hr. Qed.

  Lemma ol_all :
    (forall s, clean_stack s = true -> Forall OL (B s))
    /\ (forall f, clean_frame f = true -> Forall OL (Fm f))
    /\ (forall c, clean_ctx c = true -> forall hp sl, Forall OL (Cx hp sl c))
    /\ (forall k, clean_child k = true -> Forall OL (core k)).
  Proof.
    apply tree_ind.
    - intros r fs lf er HF Hc. rewrite Forall_forall in HF. apply clean_stack_inv in Hc as (_ & Hl & Hf).
      rewrite B_eq. apply Forall_app; split; [|apply Forall_app; split].
      + apply Forall_flat_map, Forall_forall. intros f Hin. apply filter_In in Hin as [Hin _]. apply OL_pref, HF; auto.
      + destruct lf; repeat constructor. simpl. apply oneline_nl, Hl.
      + destruct er; constructor; [reflexivity|]. apply Forall_map. exact (err_sublines_oneline _).
    - intros f HC Hc. rewrite Forall_forall in HC.
      apply clean_frame_inv in Hc as (Hh & Hs & Hcs).
      rewrite Fm_eq. constructor; [exact Hh|]. apply Forall_app; split.
      + apply Forall_flat_map, Forall_forall. intros c Hin. apply vctxs_In in Hin as [Hin _]. apply OL_pref, HC; auto.
      + unfold code_lines. destruct (last_exiting _); [constructor|].
        destruct (nonempty _); repeat constructor. simpl. apply oneline_nl, Hs.
    - intros ty asy ex vn sl0 ds cs cr orp inn ks h Hi Hk Hc hp sl. rewrite Forall_forall in Hk.
      rewrite Cx_eq. destruct (vis o h); [|constructor].
      constructor; [apply ctx_line_oneline, Hc|]. apply clean_ctx_inv in Hc as [Hci Hck].
      apply Forall_app; split; [destruct inn; [apply Hi, Hci | constructor]|]. rewrite forallb_forall in Hck.
      apply KL_Forall; [reflexivity|]. intros k post Hin Hpost.
      apply OL_pref, Forall_app; split; [apply Hk, Hck; exact Hin|]. destruct Hpost as [->|[-> _]]; repeat constructor.
    - intros c H Hc. apply (H Hc).
    - intros [r fs lf er] H Hc. constructor; [|apply H, Hc]. apply (clean_stack_inv r fs lf er) in Hc as [Hr _].
      destruct r; [apply oneline_nl, Hr | reflexivity].
  Qed.

  Theorem lines_oneline s : clean_stack s = true -> Forall OL (fmt_stack_sl o s).
  Proof.
    intros Hc. constructor; [|apply ol_all, Hc]. apply header_oneline. destruct s. apply (clean_stack_inv _ _ _ _ Hc).
  Qed.

  Lemma chain_all :
    (forall s, Forall CK (B s)) /\ (forall f, Forall CK (Fm f))
    /\ (forall c hp sl, Forall CK (Cx hp sl c)) /\ (forall k, Forall CK (core k)).
  Proof.
    apply tree_ind.
    - intros r fs lf er HF. rewrite Forall_forall in HF. rewrite B_eq.
      apply Forall_app; split; [|apply Forall_app; split].
      + apply Forall_flat_map, Forall_forall. intros f Hin. apply filter_In in Hin as [Hin _].
        apply CK_pref_plain, HF; auto.
      + destruct lf; repeat constructor.
      + destruct er; constructor; [reflexivity|]. apply Forall_map, Forall_forall. reflexivity.
    - intros f HC. rewrite Forall_forall in HC. rewrite Fm_eq.
      constructor; [reflexivity|]. apply Forall_app; split.
      + apply Forall_flat_map, Forall_forall. intros c Hin. apply vctxs_In in Hin as [Hin _].
        apply CK_pref_plain; [reflexivity | intros l; unfold gctx; destruct (sl_is_child l); reflexivity | apply HC, Hin].
      + unfold code_lines. destruct (last_exiting _); [constructor|]. destruct (nonempty _); repeat constructor.
    - intros ty asy ex vn sl0 ds cs cr orp inn ks h Hi HK hp sl. rewrite Cx_eq.
      destruct (vis o h); constructor; [reflexivity|].
      apply Forall_app; split; [destruct inn; [apply Hi | constructor]|]. rewrite Forall_forall in HK.
      apply KL_Forall; [reflexivity|]. intros k post Hin Hpost.
      apply (CK_pref_kid node_head); [apply HK, Hin | apply core_tail_heads | exact Hpost].
    - intros c H. apply (H false false).
    - intros s H. constructor; [reflexivity | exact H].
  Qed.
End Lines.

Lemma app_eq_len {A} (x y u v : list A) : List.length x = List.length u -> x ++ y = u ++ v -> x = u /\ y = v.
Proof.
  revert u. induction x as [|a x IH]; destruct u as [|c u]; simpl; try discriminate; auto.
  intros HL HE. injection HL as HL. injection HE as -> HE. destruct (IH u HL HE) as [-> ->]. auto.
Qed.
Lemma mstr_len2 m : List.length (mstr false m) = 2.
Proof. destruct m; reflexivity. Qed.
Lemma mstr_inj m1 m2 : mstr false m1 = mstr false m2 -> canon m1 = canon m2.
Proof. destruct m1, m2; intros H; try reflexivity; vm_compute in H; discriminate. Qed.
Lemma prefix_b_app p x : prefix_b p (p ++ x) = true.
Proof. induction p as [|c p IH]; simpl; auto. rewrite N.eqb_refl, IH. reflexivity. Qed.
Lemma bfree_spec b m : bfree b = true -> prefix_b (mstr false m) b = false.
Proof.
  unfold bfree. intros H. rewrite forallb_forall in H.
  assert (E : exists m', In m' [SF;CF;SL;SCX;CCX;SCC;SCODE;SC;CC] /\ mstr false m = mstr false m').
  { exists (canon m). split; destruct m; simpl; auto 12. }
  destruct E as [m' [Hin ->]]. specialize (H m' Hin). destruct (prefix_b (mstr false m') b); auto; discriminate.
Qed.

Lemma render_cons asc m ms b : render asc (m :: ms, b) = mstr asc m ++ render asc (ms, b).
Proof. unfold render. simpl. rewrite app_assoc. reflexivity. Qed.

Lemma render_inj_canon ms1 : forall ms2 b1 b2,
  bfree b1 = true -> bfree b2 = true ->
  render false (ms1, b1) = render false (ms2, b2) -> map canon ms1 = map canon ms2 /\ b1 = b2.
Proof.
  induction ms1 as [|m1 ms1 IH]; intros [|m2 ms2] b1 b2 H1 H2 E.
  - split; auto.
  - exfalso. rewrite render_cons in E. unfold render in E at 1. simpl in E. subst b1.
    pose proof (bfree_spec _ m2 H1) as F. rewrite prefix_b_app in F. discriminate.
  - exfalso. rewrite render_cons in E. unfold render in E at 2. simpl in E. subst b2.
    pose proof (bfree_spec _ m1 H2) as F. rewrite prefix_b_app in F. discriminate.
  - rewrite !render_cons in E. apply app_eq_len in E; [|rewrite !mstr_len2; reflexivity].
    destruct E as [Em Er]. destruct (IH ms2 b1 b2 H1 H2 Er) as [Ec ->]. simpl. rewrite Ec, (mstr_inj _ _ Em). auto.
Qed.

Lemma chain_ok_tail m r b : chain_ok (m :: r) b = true -> chain_ok r b = true.
Proof. destruct m, r; simpl; auto; discriminate. Qed.
Lemma err_nb_tail m r b : err_nb (m :: r) b = true -> err_nb r b = true.
Proof. destruct m, r; simpl; auto. Qed.

(* [canon] identifies exactly two pairs of markers: ERR with CC (both two blanks) and CCI with SC.
   CCI never stands in a chain ([chain_ok]).  ERR and CC are told apart by where they stand and by
   the body: ERR only as the last marker; CC as the last marker only before the body "\n", and
   there ERR is excluded by [err_nb]. *)
Lemma canon_chain_unique ms1 : forall ms2 b,
  map canon ms1 = map canon ms2 ->
  chain_ok ms1 b = true -> chain_ok ms2 b = true -> err_nb ms1 b = true -> err_nb ms2 b = true -> ms1 = ms2.
Proof.
  induction ms1 as [|m1 r1 IH]; intros [|m2 r2] b E C1 C2 N1 N2; try discriminate; auto.
  simpl in E. injection E as Em Er.
  assert (Hr : r1 = r2).
  { apply (IH r2 b Er); eauto using chain_ok_tail, err_nb_tail. }
  subst r2. f_equal.
  destruct m1, m2; try reflexivity; try discriminate Em; destruct r1; simpl in *; try discriminate;
    try (rewrite C1 in *; discriminate); try (rewrite C2 in *; discriminate).
Qed.

(* The remaining definitions are what the statements of C18.v are written with. *)

(* finite facts about the marker strings regenerated from _types.py *)
Definition markers_wf : bool :=
  forallb (fun asc =>
    forallb (fun m => Nat.eqb (List.length (mstr asc m)) 2) [SF;CF;SL;SCX;CCX;SCC;SCODE;SC;CC;ERR;CCI]
    && text_eqb (mstr asc CCI) (mstr asc SC)
    && forallb (fun m => negb (text_eqb (mstr asc m) (mstr asc SC))) [SF;CF;SL;ERR;CC]
    && forallb (fun m => negb (all_space (mstr asc m))) [SF;CF;SL;SCX;SC;SCODE]
    && forallb (fun m => all_space (mstr asc m)) [CC;ERR]) [true;false]
  (* unicode mode: the alternatives at one column are pairwise different strings *)
  && forallb (fun p => negb (text_eqb (mstr false (fst p)) (mstr false (snd p))))
       [(SF,CF);(SF,SL);(CF,SL);(SF,ERR);(CF,ERR);(SL,ERR);
        (SCX,CCX);(SCX,SCC);(SCX,SCODE);(CCX,SCC);(CCX,SCODE);(SCC,SCODE);(SC,CC)]
  && forallb (fun m => forallb (fun c => N.ltb c 128) (mstr true m)) [SF;CF;SL;SCX;CCX;SCC;SCODE;SC;CC;ERR;CCI].

Definition with_ascii (b : bool) (o : fopts) : fopts :=
  {| M_Format.ascii := b; show_ctx := show_ctx o; show_hidden := show_hidden o |}.

(* str(x) = "".join(x.format()) *)
Definition str_of (s : stack) : text :=
  List.concat (fmt_stack_str {| M_Format.ascii := false; show_ctx := true; show_hidden := false |} s).

Definition single_lines (ls : list text) : bool := forallb oneline ls.

Definition lex_ok (l : sline) : bool := chain_ok (fst l) (snd l) && err_nb (fst l) (snd l) && bfree (snd l).

Definition sline_eqb (x y : sline) : bool := list_eqb marker_eqb (fst x) (fst y) && text_eqb (snd x) (snd y).
Definition uni := {| M_Format.ascii := false; show_ctx := true; show_hidden := false |}.
Definition asc_o := {| M_Format.ascii := true; show_ctx := true; show_hidden := false |}.

(* unicode mode, line level: an empty error line below a context and the blank line that
   surrounds a populated child stack are the same characters; both occur in formatted trees *)
Definition amb_frame (cs : list context) : frame :=
  Frm (a "f") None (Some (a "m")) (a "x.py") 3%N [] [] false false cs.
Definition amb_t1 : stack :=   (* inner stack whose error text has an empty line *)
  Stk None [amb_frame [Ctx None false false None None (Some (a "c")) [] [] []
                           (Some (Stk None [] None (Some [a "E: a" ++ nl ++ nl]))) [] false]] None None.
Definition amb_t2 : stack :=   (* populated child stack *)
  Stk None [amb_frame [Ctx None false false None None (Some (a "c")) [] [] [] None
                           [KStk (Stk None [amb_frame []] None None)] false]] None None.

(* ascii mode, whole text: start_frame and start_leaf are both "+ ", so a stack with one frame
   and a frame-less stack whose leaf's repr spells that frame's line print identically *)
Definition asc_t1 : stack := Stk None [amb_frame []] None None.
Definition asc_t2 : stack := Stk None [] (Some (a "f in m at x.py:3")) None.
