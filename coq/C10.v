(* C10 — frame hooks: unwrap to a fixpoint; elaborate_frame edits only the inward rest.
   Model: M_Frames.v (extract_iter as coded).  Reference interpretation of the documented rules:
   M_FramesRef.v (Unw / RefFlat / Ref, big-step, no fuel/deques/origins/ticks).
   Examples meeting the hypotheses: ex_* in P_Frames_Ref.v and P_Frames_Fuel.v. *)
Require Import Base M_Frames M_FramesRef P_Frames_Ref P_Frames_Fuel.
From SS.gen Require Import SrcFacts.

(* the constant of the progress guard, regenerated from the source *)
Theorem C10_guard_constant : SrcFacts.unwrap_guard = 100.
Proof. reflexivity. Qed.
Print Assumptions C10_guard_constant.

(* the hook call sites of extract_iter are guarded in the source, as the cases assume *)
Theorem C10_guards_regenerated :
  extract_g_unwrap = g_unwrap all_guards /\ extract_g_iter = g_iter all_guards /\
  extract_g_elab = g_elab all_guards.
Proof. repeat split. Qed.
Print Assumptions C10_guards_regenerated.

(* every configuration printed by the generator (no faults, no contexts, all guards) is in the
   domain of the theorems below, whatever its tables *)
Theorem C10_cases_plain : forall u e a cx fl ug, plain (mkcfg u e a cx fl [] false all_guards ug).
Proof. exact mkcfg_plain. Qed.
Print Assumptions C10_cases_plain.

(* the reference interpretation is deterministic: "the reference result" is well defined *)
Theorem C10_ref_deterministic : forall c seq r r', Ref c seq r -> Ref c seq r' -> r = r'.
Proof. exact Ref_det. Qed.
Print Assumptions C10_ref_deterministic.

(* the executable reference used as second oracle in the cases files computes it *)
Theorem C10_ref_run_sound : forall c fuel seq r, ref_run fuel c seq = Some r -> Ref c seq r.
Proof. exact ref_run_sound. Qed.
Print Assumptions C10_ref_run_sound.

(* MAIN: whenever the model's extract does not run out of fuel it returns a Stack (never raises)
   whose frames (with hide flags), leaf and ordered errors are the reference result *)
Theorem C10_model_eq_ref : forall c root,
  plain c -> extract c root <> OutOfFuel ->
  exists s, extract c root = Ok s /\ Ref c [(s_of root, 0)] (view s).
Proof. exact model_eq_ref. Qed.
Print Assumptions C10_model_eq_ref.

(* same for every amount of fuel and every starting tick *)
Theorem C10_model_eq_ref_any_fuel : forall c root fuel t r t',
  plain c -> run fuel false c (root_q c root) [] [] [] t = (r, t') -> r <> OutOfFuel ->
  exists s, r = Ok s /\ Ref c [(s_of root, 0)] (view s).
Proof. exact run_root_ref. Qed.
Print Assumptions C10_model_eq_ref_any_fuel.

(* ... hence equal to ANY reference result *)
Theorem C10_model_eq_ref_unique : forall c root s r,
  plain c -> extract c root = Ok s -> Ref c [(s_of root, 0)] r -> view s = r.
Proof. exact model_eq_ref_unique. Qed.
Print Assumptions C10_model_eq_ref_unique.

(* ... in particular to what the second oracle of the cases files computes: ref_extract c root is by
   definition ref_run default_fuel c [(s_of root, 0)] *)
Theorem C10_model_eq_ref_run : forall c root s r,
  plain c -> extract c root = Ok s -> ref_run default_fuel c [(s_of root, 0)] = Some r -> view s = r.
Proof. intros c root s r. exact (model_eq_ref_run c root s r default_fuel). Qed.
Print Assumptions C10_model_eq_ref_run.

(* all hooks return None: the frames are the leading frames of the unwrapped item tree, in order;
   the leaf is what follows them *)
Theorem C10_none_is_flatten : forall c root s,
  plain c -> (forall f, elab c f = ENone) -> extract c root = Ok s ->
  exists flat es, Unw c 0 [(s_of root, 0)] flat es /\
                  view s = (frame_prefix c flat, map fst (after_frames flat), es).
Proof. intros c root s P AN E. exact (Ref_all_none c _ _ AN (extract_ref c root s P E)). Qed.
Print Assumptions C10_none_is_flatten.

(* PRUNE / empty sequence at a frame of depth d, in any state of the outer loop: the frames already
   yielded are unchanged, the entries removed are exactly the maximal following run with
   depth >= d (the callees), the first entry of depth < d and everything after it survive, and the
   remainder of the result is the reference result of the survivors alone *)
Theorem C10_prune_exact : forall c fuel f org d rest errs out t,
  plain c -> nopy rest -> elab c f = ESeq [] ->
  let gone := callees d rest in
  let kept := survivors d rest in
  rest = gone ++ kept /\ Forall (fun e => d <= snd e) gone /\
  (forall q d' k, kept = (q, d') :: k -> d' < d) /\
  run_result_is c (run fuel false c [] ((QFr f org, d) :: rest) errs out t)
                out errs f (prehide c f) [] (map er_t kept).
Proof.
  intros c fuel f org d rest errs out t P NP E gone kept.
  destruct (callees_survivors d rest) as (A & B & C). repeat split; auto.
  exact (run_frame_seq c P fuel f org d rest errs out t [] NP E).
Qed.
Print Assumptions C10_prune_exact.

(* a sequence not ending in next_inner: its items, at the frame's depth, replace the callees *)
Theorem C10_replace : forall c fuel f org d rest errs out t l,
  plain c -> nopy rest -> elab c f = ESeq l ->
  let next := next_of_s (map er_t rest) in
  ends_next next l = false ->
  run_result_is c (run fuel false c [] ((QFr f org, d) :: rest) errs out t)
                out errs f (prehide c f) []
                (at_depth d (map (conc_s next) l) ++ map er_t (survivors d rest)).
Proof.
  intros c fuel f org d rest errs out t l P NP E next EN.
  pose proof (run_frame_seq c P fuel f org d rest errs out t l NP E) as H.
  subst next. cbv zeta in H. rewrite (seq_action_replace _ _ EN) in H. exact H.
Qed.
Print Assumptions C10_replace.

(* a sequence ending in next_inner: the other items are inserted at the frame's depth before the
   rest; nothing is removed; only next_inner's depth may change (to min d own, redepth_s_spec) *)
Theorem C10_insert : forall c fuel f org d rest errs out t l r,
  plain c -> nopy rest -> elab c f = ESeq (l ++ [r]) ->
  let next := next_of_s (map er_t rest) in
  is_next next r = true ->
  run_result_is c (run fuel false c [] ((QFr f org, d) :: rest) errs out t)
                out errs f (prehide c f) []
                (at_depth d (map (conc_s next) l) ++ redepth_s d (map er_t rest)).
Proof.
  intros c fuel f org d rest errs out t l r P NP E next EN.
  pose proof (run_frame_seq c P fuel f org d rest errs out t (l ++ [r]) NP E) as H.
  subst next. cbv zeta in H. rewrite (seq_action_insert _ _ _ EN) in H. exact H.
Qed.
Print Assumptions C10_insert.

Theorem C10_insert_depths : forall d rest,
  map fst (redepth_s d rest) = map fst rest /\
  match rest, redepth_s d rest with
  | (_, d') :: r, (_, d'') :: r' => d'' = Nat.min d d' /\ r' = r
  | [], [] => True
  | _, _ => False
  end.
Proof. exact redepth_s_spec. Qed.
Print Assumptions C10_insert_depths.

(* every hook result (None, bare item, bare next_inner, sequence, raise) in one statement *)
Theorem C10_frame_rule : forall c (P : plain c) fuel f org d rest errs out t,
  nopy rest ->
  frame_spec c (run fuel false c [] ((QFr f org, d) :: rest) errs out t) out errs f d (map er_t rest).
Proof. exact run_frame_ref. Qed.
Print Assumptions C10_frame_rule.

(* a @yields_frames iterator contributes exactly the non-None items it yields before it stops or
   raises: same frames and leaf as if the hook had returned them as a sequence (with or without None
   entries in between, which are skipped alike).  In the correspondence a yielded None is mapped to
   "no item" by the abstraction (frames_gen.c_cfg); the generated iterators yield None at every
   position. *)
Theorem C10_iter_keeps_prefix : forall c c2 o l root s s2,
  plain c -> plain c2 -> iter_as_seq c c2 o l ->
  extract c root = Ok s -> extract c2 root = Ok s2 ->
  fst (view s) = fst (view s2).
Proof.
  intros c c2 o l root s s2 P P2 IS E E2.
  generalize (extract_ref c root s P E). destruct (view s) as [[frs lf] es]. intros R.
  destruct (Ref_iter_as_seq c c2 o l IS _ _ R) as [es' R2].
  rewrite (model_eq_ref_unique c2 root s2 _ P2 E2 R2). reflexivity.
Qed.
Print Assumptions C10_iter_keeps_prefix.

(* a linear chain that reaches neither a frame nor None within the (regenerated) guard constant
   ends with the loop error and the item as leaf; fuel >= guard + 2 suffices *)
Theorem C10_guard : forall c (o : nat -> nat),
  (forall t, fault c t = false) -> g_unwrap (grd c) = true ->
  uguard c = SrcFacts.unwrap_guard ->
  (forall k, k < SrcFacts.unwrap_guard -> unwrap c (o k) = UOne (IObj (o (S k)))) ->
  unwrap c (o SrcFacts.unwrap_guard) <> URaise ->
  extract c (IObj (o 0))
  = Ok (Stack [] (LOne (QObj (o SrcFacts.unwrap_guard))) [ELoop (QObj (o SrcFacts.unwrap_guard))]).
Proof.
  intros c o NF GU UG CH NR. rewrite <- UG in *.
  unfold extract, extract_t. apply guard_run; auto.
  rewrite UG. apply Nat.leb_le. reflexivity.
Qed.
Print Assumptions C10_guard.

Theorem C10_guard_any_fuel : forall c (o : nat -> nat) fuel t,
  (forall t, fault c t = false) -> g_unwrap (grd c) = true ->
  (forall k, k < uguard c -> unwrap c (o k) = UOne (IObj (o (S k)))) ->
  unwrap c (o (uguard c)) <> URaise ->
  uguard c + 2 <= fuel ->
  fst (run fuel false c (root_q c (IObj (o 0))) [] [] [] t)
  = Ok (Stack [] (LOne (QObj (o (uguard c)))) [ELoop (QObj (o (uguard c)))]).
Proof. intros c o fuel t NF GU CH NR. exact (guard_run c o NF GU CH NR fuel t). Qed.
Print Assumptions C10_guard_any_fuel.

(* fuel sufficiency on rank-ordered tables: the side condition of C10_model_eq_ref is
   discharged.  [ranked n c root] (boolean, checked on the generated tables inside Coq): every hook
   result of an object/frame of rank < n names only items of strictly greater rank < n, next_inner
   only as last element; fuel_bound n c root = 1 + table-derived weight of the root. *)
Theorem C10_fuel_sufficient : forall n c root,
  ranked n c root = true -> plain c -> forall fuel t,
  fuel_bound n c root <= fuel -> fst (run fuel false c (root_q c root) [] [] [] t) <> OutOfFuel.
Proof. exact run_total. Qed.
Print Assumptions C10_fuel_sufficient.

Theorem C10_ranked_total : forall c n root,
  plain c -> ranked n c root = true ->
  exists bound, forall fuel, bound <= fuel ->
    exists s, fst (run fuel false c (root_q c root) [] [] [] 0) = Ok s /\ Ref c [(s_of root, 0)] (view s).
Proof.
  intros c n root P R. exists (fuel_bound n c root). intros fuel.
  exact (model_eq_ref_total_run n c root R P fuel).
Qed.
Print Assumptions C10_ranked_total.

(* extract (default fuel): unconditional model = reference whenever the bound fits, which the
   cases files check for every table the generator claims to be ranked (rank_claim_ok) *)
Theorem C10_model_eq_ref_total : forall c n root,
  plain c -> ranked n c root = true -> fuel_bound n c root <= default_fuel ->
  exists s, extract c root = Ok s /\ Ref c [(s_of root, 0)] (view s).
Proof. intros c n root P R. exact (model_eq_ref_total_run n c root R P default_fuel). Qed.
Print Assumptions C10_model_eq_ref_total.

(* customize(target, elaborate=user, prune=..): the user's result is used unless it is None (PRUNE and
   the empty sequence are results, not None); otherwise PRUNE iff prune.  The cases files build the
   rows of customize()d frames with [customized], so the composition is what is compared. *)
Theorem C10_customize_compose : forall hide prune,
  (forall h, fst (customized hide prune (Some (ENone, h))) = (if prune then ESeq [] else ENone)) /\
  fst (customized hide prune None) = (if prune then ESeq [] else ENone) /\
  snd (customized hide prune None) = hide /\
  (forall l h, customized hide prune (Some (ESeq l, h)) = (ESeq l, h)) /\
  (forall i h, customized hide prune (Some (EOne (RItem i), h)) = (EOne (RItem i), h)) /\
  (forall h, customized hide prune (Some (ERaise, h)) = (ERaise, h)).
Proof. repeat split. Qed.
Print Assumptions C10_customize_compose.

Theorem C10_customize_prune_exact : forall u e a cx fl ug f hide h fuel org d rest errs out t,
  let c := mkcfg u ((f, customized hide false (Some (ESeq [], h))) :: e) a cx fl [] false all_guards ug in
  nopy rest ->
  run_result_is c (run fuel false c [] ((QFr f org, d) :: rest) errs out t)
                out errs f h [] (map er_t (survivors d rest)).
Proof.
  intros u e a cx fl ug f hide h fuel org d rest errs out t c NP.
  assert (E : elab c f = ESeq [] /\ prehide c f = h)
    by (unfold c; simpl; rewrite Nat.eqb_refl; split; reflexivity).
  destruct E as [E H].
  destruct (C10_prune_exact c fuel f org d rest errs out t (mkcfg_plain _ _ _ _ _ _) NP E) as (_ & _ & _ & R).
  rewrite H in R. exact R.
Qed.
Print Assumptions C10_customize_prune_exact.
