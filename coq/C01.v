(* C01 — contexts of a suspended frame are exactly the entered-but-not-exited managers. *)
Require Import Base M_Bytecode M_Analysis M_WithMachine M_Cert P_Cert X_WMExample.

(* For a code object whose certificate passes [checkk KSusp]: in EVERY state the with-machine can
   reach (all branch outcomes, loops, exceptions, throws, any manager instances) and at EVERY
   suspension point (yield / await, including an await inside a manager's __aenter__ or
   __aexit__), the model of stackscope's trickery analysis returns exactly the managers whose
   enter has completed and whose exit has not, outermost first, each with the identical
   manager instance, the right is_async, is_exiting for the one whose exit is in progress —
   and no warning. *)
Theorem C01_exact_suspended : forall v c t ct, checkk v KSusp c t ct = true ->
  forall s, reach v c t s ->
  forall lasti st tr, In (false, lasti, st, tr) (obs c s) ->
  trickery v c t false lasti st = TOk (expected tr).
Proof. intros v c t ct Hc s Hr lasti st tr Hin. exact (analysis_exact v KSusp c t ct Hc s Hr false lasti st tr Hin (or_introl (conj eq_refl eq_refl))). Qed.
Print Assumptions C01_exact_suspended.

(* what [expected] says, spelled out: one entry per truth entry that is not still entering,
   in order; the object is the truth's instance unless exiting; exiting flag iff phase Exiting *)
Theorem C01_expected_spec : forall (tr : list (tent nat)),
  map (fun x => (c_site x, c_async x, c_exiting x)) (expected tr)
  = map (fun e => (t_site e, t_async e, phase_eqb (t_phase e) Exiting))
        (filter (fun e => negb (phase_eqb (t_phase e) Entering)) tr)
  /\ forall x, In x (expected tr) ->
       (c_exiting x = false -> exists e, In e tr /\ t_phase e = Active /\ c_obj x = Some (t_inst e) /\ c_site x = t_site e)
       /\ (c_exiting x = true -> c_obj x = None).
Proof.
  intros tr. split.
  - unfold expected. induction tr as [|e tr IH]; [reflexivity|]. cbn [flat_map filter].
    rewrite map_app, IH. destruct (t_phase e) eqn:E; cbn; rewrite ?E; reflexivity.
  - intros x Hx. apply in_expected in Hx as (e & He & Hs & _ & [(Hp & Ho & ->)|(_ & Ho & ->)]).
    + split; [eauto|discriminate].
    + split; [discriminate|trivial].
Qed.
Print Assumptions C01_expected_spec.

(* the instance invariant behind "the identical manager object" *)
Theorem C01_site_determines_instance : forall v c t ct, checkk v KSusp c t ct = true ->
  forall s, reach v c t s -> Inv s.
Proof. intros v. exact (inv_reach v KSusp). Qed.
Print Assumptions C01_site_determines_instance.

(* non-vacuity: a real 3.12 code object (two nested async with, then a with), its certificate
   passes, and the machine reaches a suspension inside both managers / inside __aexit__ *)
Example C01_example_check : checkk V312 KSusp ex_code ex_table ex_cert = true.
Proof. vm_compute. reflexivity. Qed.
Example C01_example_suspended_in_body :
  exists s, reach V312 ex_code ex_table s /\ length (truth s) = 2 /\
            exists lasti st tr, In (false, lasti, st, tr) (obs ex_code s) /\ length (expected tr) = 2.
Proof.
  eexists. split; [apply (exec_reach _ _ _ ex_path_body _ _ (reach_init _ _ _)); vm_compute; reflexivity|].
  split; [reflexivity|]. eexists _, _, _. split; [left; reflexivity|reflexivity].
Qed.
Example C01_example_suspended_in_aexit :
  exists s, reach V312 ex_code ex_table s /\
            exists lasti st tr, In (false, lasti, st, tr) (obs ex_code s)
                                /\ map (@c_exiting nat) (expected tr) = [false; true].
Proof.
  eexists. split; [apply (exec_reach _ _ _ ex_path_aexit _ _ (reach_init _ _ _)); vm_compute; reflexivity|].
  eexists _, _, _. split; [left; reflexivity|reflexivity].
Qed.

(* stackscope's exception-table parser inverts CPython's writer, for all entry lists
   with fields below 2^30 (the writer's own bound) *)
Require Import M_ExcTable P_ExcTable.
Theorem C01_exctable_roundtrip : forall es, Forall ok_ent es ->
  parse_exception_table (enc_table es) = map ent_of_raw es.
Proof.
  intros es Hok. apply parse_table_enc; [assumption|]. pose proof (enc_table_len es). lia.
Qed.
Print Assumptions C01_exctable_roundtrip.

(* CPython 3.9 / 3.10 (block-stack interpreters).  PARTIAL: there is no with-protocol machine for
   these versions, so exactness of the whole context list is not a theorem there (runtime
   ground-truth leg).  What is proved is the part of the analysis that needs an argument about
   every execution: which block an exit call in progress belongs to.  For a code object whose
   block-stack certificate Coq's [check_bcert] accepts (run on every corpus code object under
   3.10 and 3.9, kind `bs`), whenever the model of currently_exiting_context answers
   "exiting, handler h" because the frame rests behind a POP_BLOCK, then on EVERY execution of the
   block-stack machine (all branch outcomes, loops, an exception at any instruction) that reaches
   this POP_BLOCK the innermost open SETUP_* block is the one with handler h — the block that
   POP_BLOCK pops; and some execution does reach it. *)
Require Import M_BlockStack P_BlockStack.
Theorem C01_py310_exiting_block_partial : forall c ce lasti a h,
  check_bcert c ce = true ->
  exiting310 c lasti = EExit a h ->
  scan c lasti = ScHandler a h \/
  exists pop, scan c lasti = ScPop a pop /\ bat c pop = BPopBlock /\
              (exists st, breach c (pop, st)) /\
              forall st, breach c (pop, st) -> last_opt st = Some h.
Proof.
  intros c ce lasti a h Hc E. unfold exiting310 in E.
  destruct (scan c lasti) as [| |a' h'|a' pop]; try discriminate.
  - injection E as -> ->. left. reflexivity.
  - destruct (walk (walk_fuel c) c pop [(0, [])] []) eqn:W; try discriminate.
    injection E as -> ->. right. exists pop. split; [reflexivity|]. exact (walk_sound c ce pop _ _ h Hc W).
Qed.
Print Assumptions C01_py310_exiting_block_partial.

(* the certificate really is an invariant of all executions of the block-stack machine *)
Theorem C01_py310_cert_sound : forall c ce s,
  check_bcert c ce = true -> breach c s -> cat ce (fst s) = Some (snd s).
Proof. exact cert_sound. Qed.
Print Assumptions C01_py310_cert_sound.

(* analyze_with_blocks before 3.11: one entry per SETUP_WITH / SETUP_ASYNC_WITH, keyed by its
   handler, is_async iff SETUP_ASYNC_WITH *)
Theorem C01_py310_with_info : forall c h a,
  In (h, a) (with_info c) <-> exists p, p < length c /\ bat c p = BSetup (if a then WAsyncWith else WWith) h.
Proof.
  intros c h a. induction c as [|x c IH]; [split; [intros []|intros (p & L & _); inversion L]|].
  rewrite bat_cons_ex, with_info_cons, IH. reflexivity.
Qed.
Print Assumptions C01_py310_with_info.

(* non-vacuity: a with block, its exit call, its handler *)
Example C01_py310_example :
  check_bcert P_BlockStack.ex_code P_BlockStack.ex_cert = true /\
  exiting310 P_BlockStack.ex_code 6 = EExit false 9 /\ exiting310 P_BlockStack.ex_code 9 = EExit false 9 /\
  exiting310 P_BlockStack.ex_code 1 = ENone.
Proof. vm_compute. repeat split. Qed.

(* the block-stack walk of the 3.9/3.10 branch terminates: the fuel [exiting310] gives the model
   of the `while todo:` loop (4 * units + 8) is never exhausted, for ANY code and position, so the
   out-of-fuel value cannot make a comparison or a theorem above hold for the wrong reason *)
Theorem C01_py310_walk_terminates : forall c lasti, exiting310 c lasti <> EFuel.
Proof.
  intros c lasti. unfold exiting310. destruct (scan c lasti); try discriminate.
  destruct (walk (walk_fuel c) c pop [(0, [])] []) eqn:W; try discriminate.
  destruct (walk_terminates c pop W).
Qed.
Print Assumptions C01_py310_walk_terminates.

(* completeness of the walk: the "POP_BLOCK ... doesn't appear reachable" InspectionWarning of the
   3.9/3.10 branch is only given when no path of the walk's control-flow graph (jump edges,
   SETUP_* -> handler edges, fall-through after every instruction that is not an unconditional
   transfer; EXTENDED_ARG prefixes skipped) leads from offset 0 to that POP_BLOCK — i.e. for dead
   code only (the 3.9 compiler leaves such code behind `raise` / `return` at the end of a with
   body; example [dead_code]).  Together with C01_py310_walk_terminates: on a reachable POP_BLOCK
   the walk answers (a handler) or crashes (an empty simulated stack), and on code whose
   certificate checks it does not crash (P_BlockStack.walk_no_crash). *)
Require Import P_BlockStackC.
Theorem C01_py310_walk_complete : forall c pop fuel,
  walk fuel c pop [(0, [])] [] = WNotFound ->
  forall q, oreach c q -> ~ (bat c (skip_ext c q) = BPopBlock /\ skip_ext c q = pop).
Proof. intros c pop fuel. exact (walk_notfound c pop fuel _ _ (winv_start c pop)). Qed.
Print Assumptions C01_py310_walk_complete.
Example C01_py310_dead_code_example :
  walk (walk_fuel dead_code) dead_code 2 [(0, [])] [] = WNotFound /\ exiting310 dead_code 6 = EWarn.
Proof. vm_compute. split; reflexivity. Qed.

(* ... and every POP_BLOCK that SOME execution of the block-stack machine reaches is reachable in
   the walk's graph (P_BlockStackC.breach_rinv: the machine's exception edge leads to the handler
   of an open block, which is a SETUP_* -> handler edge of the walk).  Hence, for ANY code (no
   certificate needed): the model of the 3.9/3.10 branch never gives the "POP_BLOCK ... doesn't
   appear reachable" InspectionWarning for an exit call that an execution can actually be in. *)
Theorem C01_py310_no_unreachable_warning : forall c pop st fuel,
  breach c (pop, st) -> bat c pop = BPopBlock ->
  walk fuel c pop [(0, [])] [] <> WNotFound.
Proof.
  intros c pop st fuel R B W. destruct (reachable_pop_in_walk_graph c pop st R B) as (q & Oq & SK).
  apply (C01_py310_walk_complete c pop fuel W q Oq). rewrite SK. split; [exact B|reflexivity].
Qed.
Print Assumptions C01_py310_no_unreachable_warning.
(* non-vacuity: the POP_BLOCK of the example with block is reached by the machine *)
Example C01_py310_reachable_pop_example :
  breach P_BlockStack.ex_code (2, [9]) /\ bat P_BlockStack.ex_code 2 = BPopBlock.
Proof.
  split; [|reflexivity].
  eapply BR_step; [eapply BR_step; [apply BR_start|]|].
  - apply BS_normal. simpl. left. reflexivity.
  - apply BS_normal. simpl. left. reflexivity.
Qed.

(* Total correctness of the exit-call attribution on CPython 3.9 / 3.10, for certified code
   ([check_bcert] also demands that a reachable POP_BLOCK has a block to pop): whenever the
   frame rests behind the POP_BLOCK of an inlined exit call that SOME execution reaches with block
   stack st, the model of currently_exiting_context answers — no InspectionWarning, no exception,
   no fuel exhaustion — "exiting, handler h" with h the innermost block of st, i.e. the block that
   execution has just popped.  (Still partial w.r.t. the property: that the exit call behind that
   POP_BLOCK belongs to the popped with block is the compiler's convention, checked by the runtime
   ground-truth leg on 3.9 / 3.10.) *)
Theorem C01_py310_exit_call_resolved : forall c ce lasti a pop st,
  check_bcert c ce = true ->
  scan c lasti = ScPop a pop ->
  breach c (pop, st) ->
  exists h, exiting310 c lasti = EExit a h /\ last_opt st = Some h.
Proof.
  intros c ce lasti a pop st Hc S R. pose proof (scan_pop c lasti a pop S) as B.
  unfold exiting310. rewrite S.
  destruct (walk (walk_fuel c) c pop [(0, [])] []) eqn:W.
  - exists h. split; [reflexivity|]. exact (proj2 (proj2 (walk_sound c ce pop _ _ h Hc W)) st R).
  - destruct (C01_py310_no_unreachable_warning c pop st _ R B W).
  - destruct (walk_no_crash c ce pop Hc _ _ _ (all_reach_start c) W).
  - destruct (walk_terminates c pop W).
Qed.
Print Assumptions C01_py310_exit_call_resolved.
Example C01_py310_exit_call_resolved_example :
  check_bcert P_BlockStack.ex_code P_BlockStack.ex_cert = true /\
  scan P_BlockStack.ex_code 6 = ScPop false 2 /\ breach P_BlockStack.ex_code (2, [9]).
Proof. split; [vm_compute; reflexivity|]. split; [vm_compute; reflexivity|]. exact (proj1 C01_py310_reachable_pop_example). Qed.
