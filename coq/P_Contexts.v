(* P_Contexts.v — the context-hook loop of M_Contexts.fill against a reference written from the
   property text (property C11): forward reachability [Iter] ("after k successful unwrap steps
   the loop is about to elaborate ck") and the outcome relation [Ref].  The model's loop is first
   written as the iteration of one [round] without log accumulator ([loopF]); [Ref] is then shown
   to be exactly the graph of [loopF], which gives soundness, completeness and determinism at
   once.  The remaining facts (hook-call trace, guard, options) are read off [loopF]. *)
Require Import Base M_Contexts.
From SS.gen Require Import SrcFacts.

Definition ev_opts (e : ev) : opts :=
  match e with VElab _ x | VUnwrap _ x | VGen _ _ _ _ x => x end.

Section Loop.
Variable cf : cfg.
Variable o : opts.

Definition elab1 (c : ctx) : ctx * list ev * bool := elab_step cf o c [].
Definition unwrap1 (c : ctx) : ures * list ev * option who := unwrap_step cf o c [].

(* Each hook step pushes at most one event onto the log it is handed, so its own log reads the
   same in call order and newest first; the event records the options in force; a verdict URaise
   always comes with the exception. *)
Lemma elab_step_acc c log :
  let '(c1, l, r) := elab1 c in
  elab_step cf o c log = (c1, l ++ log, r) /\ length l <= 1 /\ Forall (fun e => ev_opts e = o) l.
Proof.
  unfold elab1, elab_step. destruct (gcm _); [simpl; auto|].
  destruct (hooked _); [|simpl; auto]. destruct (apply_effs _ _); simpl; auto.
Qed.

Lemma gen_hook_acc c f cx log :
  let '(r, l, w) := gen_hook cf o c f cx [] in
  gen_hook cf o c f cx log = (r, l ++ log, w) /\ length l <= 1 /\ Forall (fun e => ev_opts e = o) l
  /\ (r = URaise -> w <> None).
Proof.
  unfold gen_hook. destruct (greg _ _); simpl; [|repeat split; auto; easy].
  destruct (gverdict _ _ _ _); repeat split; auto; easy.
Qed.

Lemma unwrap_step_acc c log :
  let '(r, l, w) := unwrap1 c in
  unwrap_step cf o c log = (r, l ++ log, w) /\ length l <= 1 /\ Forall (fun e => ev_opts e = o) l
  /\ (r = URaise -> w <> None).
Proof.
  unfold unwrap1, unwrap_step. destruct (gcm _).
  - unfold gcm_unwrap. destruct (greg _ _); [|simpl; repeat split; auto; easy].
    destruct (inner c) as [[|[f cx] fr]|]; [simpl; repeat split; auto; easy|apply gen_hook_acc|].
    destruct (gframes _); [simpl; repeat split; auto; easy|apply gen_hook_acc].
  - destruct (hooked _); [destruct (unwrapt _ _)|]; simpl; repeat split; auto; easy.
Qed.

Lemma rev_short {A} (l : list A) : length l <= 1 -> rev l = l.
Proof. destruct l as [|x [|y l]]; simpl; auto; lia. Qed.

Definition round (c : ctx) : (outcome + ctx) * list ev :=
  let '(c1, l1, raised) := elab1 c in
  if raised then (inl (RaisedHook (WElab (obj c)) c1), l1) else
  let '(r, l2, w) := unwrap1 c1 in
  (match w, r with
   | Some w, _ => inl (RaisedHook w c1)
   | None, UTo m => if eqprune (mattrs cf m) then inl (Done (set_hidden c1)) else inr (replace c1 m)
   | None, UPrune => inl (Done (set_hidden c1))
   | None, _ => inl (Done c1)
   end, l1 ++ l2).

Definition last_round (c : ctx) : outcome * list ev :=
  let '(r, l2, w) := unwrap1 c in
  (match w with Some w => RaisedHook w c | None => RaisedLoop c r end, l2).

Fixpoint loopF (n : nat) (c : ctx) : outcome * list ev :=
  match n with
  | 0 => last_round c
  | S n' =>
      match round c with
      | (inl x, l) => (x, l)
      | (inr c', l) => let '(x, l') := loopF n' c' in (x, l ++ l')
      end
  end.

Lemma loop_round n c acc :
  loop (S n) cf o c acc =
  match round c with
  | (inl x, l) => (x, rev l ++ acc)
  | (inr c', l) => loop n cf o c' (rev l ++ acc)
  end.
Proof.
  simpl. unfold round. pose proof (elab_step_acc c acc) as E.
  destruct (elab1 c) as [[c1 l1] raised]; destruct E as (-> & L1 & _).
  destruct raised; [rewrite (rev_short _ L1); reflexivity|].
  pose proof (unwrap_step_acc c1 (l1 ++ acc)) as U.
  destruct (unwrap1 c1) as [[r l2] w]; destruct U as (-> & L2 & _).
  rewrite rev_app_distr, (rev_short _ L1), (rev_short _ L2), <- app_assoc.
  destruct w; [destruct r; reflexivity|]. destruct r; try reflexivity.
  simpl. destruct (eqprune (mattrs cf m)); reflexivity.
Qed.

Lemma loop_loopF n : forall c acc,
  loop n cf o c acc = (fst (loopF n c), rev (snd (loopF n c)) ++ acc).
Proof.
  induction n as [|n IH]; intros c acc.
  - simpl. unfold last_round. pose proof (unwrap_step_acc c acc) as U.
    destruct (unwrap1 c) as [[r l2] w]; destruct U as (-> & L & _); simpl.
    rewrite (rev_short _ L). destruct w; reflexivity.
  - rewrite loop_round. simpl. destruct (round c) as [[x|c'] l]; [reflexivity|].
    rewrite IH. destruct (loopF n c') as [x l']; simpl. rewrite rev_app_distr, app_assoc. reflexivity.
Qed.

(* [Iter c0 k ck log]: starting from c0, k unwrap steps succeeded (each one: elaborate the
   current manager, unwrap it to another manager that is not PRUNE-like, replace obj and
   reset inner_stack/children); the loop is about to elaborate ck; log = hook calls so far *)
Inductive Iter (c0 : ctx) : nat -> ctx -> list ev -> Prop :=
| Iter0 : Iter c0 0 c0 []
| IterS k ck log c1 l1 m l2 :
    Iter c0 k ck log -> k < guard cf ->
    elab1 ck = (c1, l1, false) ->
    unwrap1 c1 = (UTo m, l2, None) ->
    eqprune (mattrs cf m) = false ->
    Iter c0 (S k) (replace c1 m) (log ++ l1 ++ l2).

(* how fill_context ends, one rule per clause of the property *)
Inductive Ref (c0 : ctx) : outcome -> list ev -> Prop :=
| RefElabRaise k ck log c1 l1 :                       (* elaborate hook raised *)
    Iter c0 k ck log -> k < guard cf -> elab1 ck = (c1, l1, true) ->
    Ref c0 (RaisedHook (WElab (obj ck)) c1) (log ++ l1)
| RefUnwrapRaise k ck log c1 l1 r l2 w :              (* unwrap hook raised *)
    Iter c0 k ck log -> k < guard cf -> elab1 ck = (c1, l1, false) ->
    unwrap1 c1 = (r, l2, Some w) ->
    Ref c0 (RaisedHook w c1) (log ++ l1 ++ l2)
| RefNone k ck log c1 l1 l2 :                          (* None stops *)
    Iter c0 k ck log -> k < guard cf -> elab1 ck = (c1, l1, false) ->
    unwrap1 c1 = (UNone, l2, None) ->
    Ref c0 (Done c1) (log ++ l1 ++ l2)
| RefPrune k ck log c1 l1 r l2 :                       (* PRUNE hides and stops *)
    Iter c0 k ck log -> k < guard cf -> elab1 ck = (c1, l1, false) ->
    unwrap1 c1 = (r, l2, None) -> is_prune cf r = true ->
    Ref c0 (Done (set_hidden c1)) (log ++ l1 ++ l2)
| RefLoop ck log r l2 :                                (* guard exhausted: error, not a hang *)
    Iter c0 (guard cf) ck log -> unwrap1 ck = (r, l2, None) ->
    Ref c0 (RaisedLoop ck r) (log ++ l2)
| RefLoopRaise ck log r l2 w :
    Iter c0 (guard cf) ck log -> unwrap1 ck = (r, l2, Some w) ->
    Ref c0 (RaisedHook w ck) (log ++ l2).

Lemma round_ref c0 k ck log : Iter c0 k ck log -> k < guard cf ->
  match round ck with
  | (inl x, l) => Ref c0 x (log ++ l)
  | (inr c', l) => Iter c0 (S k) c' (log ++ l)
  end.
Proof.
  intros HI LT. unfold round. destruct (elab1 ck) as [[c1 l1] raised] eqn:EE.
  destruct raised; [eapply RefElabRaise; eauto|].
  pose proof (unwrap_step_acc c1 []) as NR. destruct (unwrap1 c1) as [[r l2] w] eqn:EU.
  destruct w as [w|]; [eapply RefUnwrapRaise; eauto|]. destruct r.
  - eapply RefNone; eauto.
  - eapply RefPrune; eauto.
  - destruct (eqprune (mattrs cf m)) eqn:EP; [eapply RefPrune; eauto|eapply IterS; eauto].
  - destruct NR as (_ & _ & _ & NR). destruct (NR eq_refl eq_refl).
Qed.

Lemma loopF_sound n : forall c0 k ck log,
  Iter c0 k ck log -> k + n = guard cf ->
  Ref c0 (fst (loopF n ck)) (log ++ snd (loopF n ck)).
Proof.
  induction n as [|n IH]; intros c0 k ck log HI HK; simpl.
  - assert (k = guard cf) by lia; subst k. unfold last_round.
    destruct (unwrap1 ck) as [[r l2] w] eqn:EU; simpl.
    destruct w; [eapply RefLoopRaise|eapply RefLoop]; eauto.
  - pose proof (round_ref c0 k ck log HI ltac:(lia)) as R.
    destruct (round ck) as [[x|c'] l]; [exact R|].
    specialize (IH c0 (S k) _ _ R ltac:(lia)).
    destruct (loopF n c') as [x l']; simpl in *. rewrite app_assoc. exact IH.
Qed.

Lemma Iter_loopF c0 k ck log : Iter c0 k ck log -> forall n, k + n = guard cf ->
  loopF (guard cf) c0 = (fst (loopF n ck), log ++ snd (loopF n ck)).
Proof.
  induction 1 as [|k ck log c1 l1 m l2 HI IH LT EE EU EP]; intros n E.
  - simpl in E; subst n. destruct (loopF (guard cf) c0); reflexivity.
  - rewrite (IH (S n)) by lia. simpl. unfold round. rewrite EE, EU, EP.
    destruct (loopF n (replace c1 m)); simpl. rewrite !app_assoc. reflexivity.
Qed.

(* Each rule of [Ref] ends at a reached iteration: [Iter_loopF] brings the run from c0 there with
   the rounds that are left (at least one for the first four rules, none for the two guard rules),
   and one unfolding of [round] / [last_round] with the rule's premises gives its outcome. *)
Lemma Ref_loopF c0 x l : Ref c0 x l -> loopF (guard cf) c0 = (x, l).
Proof.
  destruct 1 as [k ck log c1 l1 HI LT EE|k ck log c1 l1 r l2 w HI LT EE EU|k ck log c1 l1 l2 HI LT EE EU
                |k ck log c1 l1 r l2 HI LT EE EU PR|ck log r l2 HI EU|ck log r l2 w HI EU].
  1-4: rewrite (Iter_loopF _ _ _ _ HI (S (guard cf - S k))) by lia; simpl; unfold round;
       rewrite EE; simpl; rewrite ?EU.
  5-6: rewrite (Iter_loopF _ _ _ _ HI 0) by lia; simpl; unfold last_round; rewrite EU.
  all: try reflexivity.
  destruct r as [| |m|]; try discriminate PR; simpl in PR; rewrite ?PR; reflexivity.
Qed.

Lemma Ref_fun c0 x l x' l' : Ref c0 x l -> Ref c0 x' l' -> x = x' /\ l = l'.
Proof. intros R R'. apply Ref_loopF in R, R'. rewrite R in R'. inversion R'; auto. Qed.

End Loop.

Definition opts_in (o : opts) : opts := match o with Some _ => o | None => Some (true, false) end.

Lemma fill_loopF cf o c :
  fill cf o c =
  (fst (loopF cf (opts_in o) (guard cf) c), snd (loopF cf (opts_in o) (guard cf) c),
   match o with
   | Some _ => o
   | None => if restores cf || negb (is_raise (fst (loopF cf (Some (true, false)) (guard cf) c)))
             then None else Some (true, false)
   end).
Proof.
  unfold fill. destruct o as [p|]; simpl; rewrite loop_loopF; simpl;
    rewrite app_nil_r, rev_involutive; reflexivity.
Qed.

Lemma fill_ref cf o c x l :
  (fst (fill cf o c) = (x, l)) <-> Ref cf (opts_in o) c x l.
Proof.
  rewrite fill_loopF; simpl. split.
  - intros E. pose proof (loopF_sound cf (opts_in o) (guard cf) c 0 c [] (Iter0 _ _ _) eq_refl) as S.
    inversion E; subst. exact S.
  - intros R. rewrite (Ref_loopF _ _ _ _ _ R). reflexivity.
Qed.

Fixpoint obj_after (l : list eff) (m : nat) : nat :=
  match l with
  | [] => m
  | ERaise :: _ => m
  | ESetObj o :: r => obj_after r o
  | _ :: r => obj_after r m
  end.
Fixpoint raises (l : list eff) : bool :=
  match l with [] => false | ERaise :: _ => true | _ :: r => raises r end.

Lemma apply_effs_spec l : forall c,
  hidden (fst (apply_effs l c)) = hidden c /\ exiting (fst (apply_effs l c)) = exiting c
  /\ obj (fst (apply_effs l c)) = obj_after l (obj c) /\ snd (apply_effs l c) = raises l.
Proof. induction l as [|[] l IH]; intros c; simpl; auto; exact (IH _). Qed.

Lemma elab1_keep cf o c :
  hidden (fst (fst (elab1 cf o c))) = hidden c /\ exiting (fst (fst (elab1 cf o c))) = exiting c.
Proof.
  unfold elab1, elab_step. destruct (gcm _).
  - unfold gcm_elab. destruct (exiting c) eqn:E; simpl; auto.
  - destruct (hooked _); simpl; auto.
    pose proof (apply_effs_spec (elabt cf (obj c)) c) as (H & X & _).
    destruct (apply_effs _ _); simpl in *; auto.
Qed.

Lemma Iter_keep cf o c0 k ck log :
  Iter cf o c0 k ck log -> hidden ck = hidden c0 /\ exiting ck = exiting c0.
Proof.
  induction 1 as [|k ck log c1 l1 m l2 HI IH LT EE EU EP]; auto.
  pose proof (elab1_keep cf o ck) as K. rewrite EE in K; simpl in *.
  destruct K, IH; split; congruence.
Qed.

Lemma Iter_start cf o c0 k ck log c1 l1 rs :
  Iter cf o c0 k ck log -> elab1 cf o ck = (c1, l1, rs) ->
  (k = 0 -> ck = c0) /\ (k > 0 -> inner ck = None /\ children ck = []) /\ hidden c1 = hidden c0.
Proof.
  intros HI EE. destruct (Iter_keep _ _ _ _ _ _ HI) as [<- _].
  pose proof (elab1_keep cf o ck) as [K _]. rewrite EE in K.
  split; [|split; [|exact K]]; destruct HI; auto; lia.
Qed.

(* Expected hook-call sequence computed from the hook tables alone (no Context involved),
   for configurations whose managers are all synthetic:
     elab o0, unwrap o0', elab o1, unwrap o1', ...   (oi' = oi unless elaborate overwrote obj)
   up to the first None / PRUNE / raise, or the extra unwrap call when the guard runs out. *)
Section Trace.
Variable cf : cfg.
Variable o : opts.

Definition t_elab (m : nat) : list ev := if hooked (mattrs cf m) then [VElab m o] else [].
Definition t_unwrap (m : nat) : list ev := if hooked (mattrs cf m) then [VUnwrap m o] else [].
Definition t_post (m : nat) : nat := if hooked (mattrs cf m) then obj_after (elabt cf m) m else m.
Definition t_raises (m : nat) : bool := if hooked (mattrs cf m) then raises (elabt cf m) else false.
Definition t_verdict (m : nat) : ures := if hooked (mattrs cf m) then unwrapt cf m else UNone.

Fixpoint trace (n : nat) (m : nat) : list ev :=
  match n with
  | 0 => t_unwrap m
  | S n' =>
      t_elab m ++
      if t_raises m then [] else
      t_unwrap (t_post m) ++
      match t_verdict (t_post m) with
      | UTo t => if eqprune (mattrs cf t) then [] else trace n' t
      | _ => []
      end
  end.

Fixpoint visited (n : nat) (m : nat) : list nat :=
  match n with
  | 0 => []
  | S n' =>
      m :: if t_raises m then [] else
      match t_verdict (t_post m) with
      | UTo t => if eqprune (mattrs cf t) then [] else visited n' t
      | _ => []
      end
  end.

Definition syn_only : Prop := forall m, gcm (mattrs cf m) = false.

Lemma elab1_syn (S : syn_only) c :
  snd (fst (elab1 cf o c)) = t_elab (obj c) /\ snd (elab1 cf o c) = t_raises (obj c)
  /\ obj (fst (fst (elab1 cf o c))) = t_post (obj c).
Proof.
  unfold elab1, elab_step, t_elab, t_raises, t_post. rewrite S.
  destruct (hooked _); simpl; auto.
  pose proof (apply_effs_spec (elabt cf (obj c)) c) as (_ & _ & A & B).
  destruct (apply_effs _ _); simpl in *; auto.
Qed.

Lemma unwrap1_syn (S : syn_only) c :
  unwrap1 cf o c = (t_verdict (obj c), t_unwrap (obj c),
                    match t_verdict (obj c) with URaise => Some (WUnwrap (obj c)) | _ => None end).
Proof.
  unfold unwrap1, unwrap_step, t_verdict, t_unwrap. rewrite S.
  destruct (hooked _); reflexivity.
Qed.

Lemma trace_spec (S : syn_only) n : forall c, snd (loopF cf o n c) = trace n (obj c).
Proof.
  induction n as [|n IH]; intros c; simpl.
  - unfold last_round. rewrite (unwrap1_syn S). reflexivity.
  - unfold round. destruct (elab1_syn S c) as (A & B & C).
    destruct (elab1 cf o c) as [[c1 l1] rs]; simpl in *. subst l1 rs. rewrite <- C.
    destruct (t_raises (obj c)); [simpl; rewrite app_nil_r; reflexivity|].
    rewrite (unwrap1_syn S c1).
    destruct (t_verdict (obj c1)) eqn:V; simpl; try rewrite app_nil_r; auto.
    destruct (eqprune (mattrs cf m)); simpl; [rewrite app_nil_r; reflexivity|].
    specialize (IH (replace c1 m)). destruct (loopF cf o n (replace c1 m)); simpl in *.
    rewrite IH, app_assoc; reflexivity.
Qed.

(* plain tables: every manager hooked, elaborations neither overwrite obj nor raise; then the
   trace is literally  elab o0, unwrap o0, elab o1, unwrap o1, ...  along the chain of the unwrap
   table ([ptrace]) *)
Definition plain : Prop :=
  forall m, hooked (mattrs cf m) = true /\ obj_after (elabt cf m) m = m /\ raises (elabt cf m) = false.

Fixpoint ptrace (n : nat) (m : nat) : list ev :=
  match n with
  | 0 => [VUnwrap m o]
  | S n' =>
      VElab m o :: VUnwrap m o ::
      match unwrapt cf m with
      | UTo t => if eqprune (mattrs cf t) then [] else ptrace n' t
      | _ => []
      end
  end.

Lemma trace_plain (P : plain) n : forall m, trace n m = ptrace n m.
Proof.
  induction n as [|n IH]; intros m; destruct (P m) as (H & PO & R); simpl;
    unfold t_elab, t_raises, t_post, t_verdict, t_unwrap; rewrite ?H, ?R, ?PO, ?H; simpl; auto.
  destruct (unwrapt cf m) as [| |t|]; auto.
  destruct (eqprune (mattrs cf t)); auto. rewrite IH; reflexivity.
Qed.

End Trace.

Lemma round_log cf o c :
  length (snd (round cf o c)) <= 2 /\ Forall (fun e => ev_opts e = o) (snd (round cf o c)).
Proof.
  unfold round. pose proof (elab_step_acc cf o c []) as E.
  destruct (elab1 cf o c) as [[c1 l1] rs]; destruct E as (_ & L1 & F1).
  destruct rs; [split; [simpl; lia|exact F1]|].
  pose proof (unwrap_step_acc cf o c1 []) as U.
  destruct (unwrap1 cf o c1) as [[r l2] w]; destruct U as (_ & L2 & F2 & _).
  simpl. rewrite app_length, Forall_app. split; [lia|auto].
Qed.

Lemma loopF_log cf o n : forall c,
  length (snd (loopF cf o n c)) <= 2 * n + 1 /\ Forall (fun e => ev_opts e = o) (snd (loopF cf o n c)).
Proof.
  induction n as [|n IH]; intros c; simpl.
  - unfold last_round. pose proof (unwrap_step_acc cf o c []) as U.
    destruct (unwrap1 cf o c) as [[r l2] w]; destruct U as (_ & L & F & _). split; [simpl; lia|exact F].
  - destruct (round_log cf o c) as [L F].
    destruct (round cf o c) as [[x|c'] l]; simpl in *; [split; [lia|exact F]|].
    destruct (IH c') as [LB FB]. destruct (loopF cf o n c'); simpl in *.
    rewrite app_length, Forall_app. split; [lia|auto].
Qed.

(* a table in which every manager unwraps to some manager (self-cycle, 2-cycle, any period,
   or an endless supply of managers) and no hook raises always ends in the RuntimeError *)
Definition endless (cf : cfg) : Prop :=
  forall m, gcm (mattrs cf m) = false /\ hooked (mattrs cf m) = true /\ eqprune (mattrs cf m) = false
            /\ raises (elabt cf m) = false /\ obj_after (elabt cf m) m = m
            /\ exists t, unwrapt cf m = UTo t.

Lemma endless_raises cf o (E : endless cf) n : forall c, exists ck r, fst (loopF cf o n c) = RaisedLoop ck r.
Proof.
  assert (S : syn_only cf) by (intros m; apply E).
  induction n as [|n IH]; intros c; simpl.
  - unfold last_round. rewrite (unwrap1_syn cf o S). unfold t_verdict.
    destruct (E (obj c)) as (_ & H & _ & _ & _ & t & U). rewrite H, U. simpl. eauto.
  - unfold round. destruct (elab1_syn cf o S c) as (A & B & C).
    destruct (elab1 cf o c) as [[c1 l1] rs]; simpl in *. subst rs.
    destruct (E (obj c)) as (_ & H & _ & R & PO & t & U).
    unfold t_raises, t_post in *. rewrite H in *. rewrite R. rewrite PO in C.
    rewrite (unwrap1_syn cf o S c1). unfold t_verdict. rewrite C, H, U. simpl.
    destruct (E t) as (_ & _ & EP & _). rewrite EP.
    destruct (IH (replace c1 t)) as (ck & r & X).
    destruct (loopF cf o n (replace c1 t)); simpl in *. eauto.
Qed.

Lemma options_kept cf o c : restores cf = true -> snd (fill cf o c) = o.
Proof. intros R. rewrite fill_loopF; simpl. destruct o; auto. rewrite R; auto. Qed.

(* The per-context try/except of extract_iter makes every context of a frame come out
   exactly as fill_context gives it in isolation, whatever happened to the earlier ones:
   the sequential loop with its accumulators equals the three independent projections. *)
Definition iso_ctx (cf : cfg) (o : opts) (c : ctx) : ctx := final_ctx (fst (fst (fill cf o c))).
Definition iso_err (cf : cfg) (o : opts) (c : ctx) : option ferr := err_of (fst (fst (fill cf o c))).
Definition iso_log (cf : cfg) (o : opts) (c : ctx) : list ev := snd (fst (fill cf o c)).

Lemma frame_loop_spec cf o cs : forall dr er log,
  frame_loop cf o cs dr er log =
  (rev dr ++ map (iso_ctx cf o) cs, rev er ++ somes (map (iso_err cf o) cs),
   log ++ concat (map (iso_log cf o) cs)).
Proof.
  induction cs as [|c r IH]; intros dr er log; simpl.
  - rewrite !app_nil_r. reflexivity.
  - unfold iso_ctx, iso_err, iso_log.
    destruct (fill cf o c) as [[x l] o'] eqn:F; simpl.
    rewrite IH. simpl. unfold iso_ctx, iso_err, iso_log.
    destruct (err_of x); simpl; rewrite <- !app_assoc; reflexivity.
Qed.

(* a Context as contexts_active_in_frame leaves it *)
Definition fresh (m : nat) : ctx := mkctx m None [] false None false.
Definition no_eqprune (cf : cfg) : Prop := forall m, eqprune (mattrs cf m) = false.

(* `inner_mgr == PRUNE` is an equality test: manager 1 compares equal to the empty tuple and is
   taken for PRUNE instead of replacing manager 0 *)
Definition eq_cfg : cfg :=
  mkcfg [(0, syn_attr true false); (1, syn_attr true true)] [] [(0, UTo 1)] [] [] [] [] 100 true.


(* plain, synthetic-only table: 0 -> 1 -> 2 -> 3 -> None, each elaboration appends to the
   description and to children *)
Definition ex_chain : cfg :=
  {| mattrs := fun _ => syn_attr true false;
     elabt := fun m => [EAppDescr m; EAppChild m];
     unwrapt := fun m => if m <? 3 then UTo (S m) else UNone;
     fcode := fun _ => 4999; fctx := fun _ => []; greg := fun _ => None; gctx0 := fun _ => false;
     guard := SrcFacts.context_guard; restores := SrcFacts.push_restores_in_finally |}.

Example ex_chain_syn : syn_only ex_chain.
Proof. intros m; reflexivity. Qed.
Example ex_chain_plain : plain ex_chain.
Proof. intros m; repeat split. Qed.
Example ex_chain_no_eqprune : no_eqprune ex_chain.
Proof. intros m; reflexivity. Qed.

(* re-elaboration after each step; children are those of the LAST elaboration only (reset),
   description is not reset and accumulates *)
Example ex_chain_run :
  fill ex_chain None (fresh 0) =
  (Done (mkctx 3 None [3] false (Some [ATag 0; ATag 1; ATag 2; ATag 3]) false),
   [VElab 0 (Some (true, false)); VUnwrap 0 (Some (true, false));
    VElab 1 (Some (true, false)); VUnwrap 1 (Some (true, false));
    VElab 2 (Some (true, false)); VUnwrap 2 (Some (true, false));
    VElab 3 (Some (true, false)); VUnwrap 3 (Some (true, false))],
   None).
Proof. vm_compute. reflexivity. Qed.

(* elaborate overwrites obj, then PRUNE: synthetic-only but not plain *)
Definition ex_setobj : cfg :=
  mkcfg [(0, syn_attr true false); (1, syn_attr true false); (2, syn_attr true false)]
        [(0, [ESetChildren [7]; ESetObj 2]); (1, [EAppChild 5])]
        [(0, URaise); (2, UTo 1); (1, UPrune)] [] [] [] []
        SrcFacts.context_guard SrcFacts.push_restores_in_finally.

Example ex_setobj_syn : syn_only ex_setobj.
Proof. intros m. do 3 (destruct m as [|m]; [reflexivity|]). reflexivity. Qed.

Example ex_setobj_run :
  fst (fill ex_setobj (Some (false, true)) (fresh 0)) =
  (Done (mkctx 1 None [5] true None false),
   [VElab 0 (Some (false, true)); VUnwrap 2 (Some (false, true));
    VElab 1 (Some (false, true)); VUnwrap 1 (Some (false, true))]).
Proof. vm_compute. reflexivity. Qed.

Definition ex_cycle (period : nat) : cfg :=
  {| mattrs := fun _ => syn_attr true false;
     elabt := fun m => [ESetDescr m];
     unwrapt := fun m => UTo (if S m <? period then S m else 0);
     fcode := fun _ => 4999; fctx := fun _ => []; greg := fun _ => None; gctx0 := fun _ => false;
     guard := SrcFacts.context_guard; restores := SrcFacts.push_restores_in_finally |}.

Example ex_cycle_endless p : endless (ex_cycle p).
Proof. intros m; repeat split. eexists; reflexivity. Qed.

Example ex_self_cycle_run :
  let '(x, log, o') := fill (ex_cycle 1) None (fresh 0) in
  x = RaisedLoop (mkctx 0 None [] false (Some [ATag 0]) false) (UTo 0) /\ length log = 201 /\ o' = None.
Proof. vm_compute. auto. Qed.

Example ex_two_cycle_run :
  let '(x, log, o') := fill (ex_cycle 2) (Some (true, true)) (fresh 1) in
  x = RaisedLoop (mkctx 1 None [] false (Some [ATag 0]) false) (UTo 0) /\ length log = 201
  /\ o' = Some (true, true).
Proof. vm_compute. auto. Qed.

(* generator-based managers: 0 is entered (frames 0 and 500, `yield from`), registered,
   hook returns manager 1 (synthetic sink); both lookup paths *)
Definition ex_gcm : cfg :=
  mkcfg [(0, gcm_attr 7 [0; 500] false); (1, syn_attr true false)]
        [(1, [EAppDescr 1])] [(1, UNone)] [(0, 7)] [] [(7, UTo 1)] []
        SrcFacts.context_guard SrcFacts.push_restores_in_finally.

Example ex_gcm_hyp : gcm (mattrs ex_gcm (obj (fresh 0))) = true /\ inner (fresh 0) = None.
Proof. split; reflexivity. Qed.

Example ex_gcm_not_exiting :
  fst (fill ex_gcm None (fresh 0)) =
  (Done (mkctx 1 None [] false (Some [AGcmEnt 7; ATag 1]) false),
   [VGen 7 0 false [] (Some (true, false)); VElab 1 (Some (true, false)); VUnwrap 1 (Some (true, false))]).
Proof. vm_compute. reflexivity. Qed.

Example ex_gcm_exiting :
  fst (fill ex_gcm None (mkctx 0 None [] false None true)) =
  (Done (mkctx 1 None [] false (Some [AGcmEnt 7; ATag 1]) true),
   [VGen 7 0 true [] (Some (true, false)); VElab 1 (Some (true, false)); VUnwrap 1 (Some (true, false))]).
Proof. vm_compute. reflexivity. Qed.

(* a generator-based wrapper whose body is `with resource: yield` (resource = inert manager 5)
   and whose hook returns frame.contexts[0].obj, falling back to None: replaced by the
   resource on both paths when contexts are analysed; inside extract(with_contexts=False) only
   the exiting path (extract_outermost) sees them *)
Definition ex_with : cfg :=
  mkcfg [(0, gcm_attr 7 [0] false); (5, syn_attr false false)] [] [] [(0, 7)] [(0, [5])] [(7, UNone)] [7]
        SrcFacts.context_guard SrcFacts.push_restores_in_finally.

Example ex_with_hyp : gcm (mattrs ex_with (obj (fresh 0))) = true /\ inner (fresh 0) = None
                      /\ wc_of (opts_in None) = true.
Proof. repeat split. Qed.

Example ex_with_not_exiting :
  fst (fill ex_with None (fresh 0)) =
  (Done (mkctx 5 None [] false (Some [AGcmEnt 7]) false), [VGen 7 0 false [5] (Some (true, false))]).
Proof. vm_compute. reflexivity. Qed.

Example ex_with_exiting :
  fst (fill ex_with None (mkctx 0 None [] false None true)) =
  (Done (mkctx 5 None [] false (Some [AGcmEnt 7]) true), [VGen 7 0 true [5] (Some (true, false))]).
Proof. vm_compute. reflexivity. Qed.

(* a failing first context (cycle) does not keep the second from being unwrapped and hidden *)
Definition ex_frame : cfg :=
  mkcfg [(0, syn_attr true false); (1, syn_attr true false); (2, syn_attr true false)]
        [(1, [ESetDescr 1]); (2, [EAppDescr 2])] [(0, UTo 0); (1, UTo 2); (2, UPrune)] [] [] [] []
        SrcFacts.context_guard SrcFacts.push_restores_in_finally.

Example ex_frame_run :
  let '(cs, errs, log) := frame_fill ex_frame false [fresh 0; fresh 1] in
  cs = [fresh 0; mkctx 2 None [] true (Some [ATag 1; ATag 2]) false]
  /\ errs = [FLoop 0 (UTo 0)] /\ length log = 205.
Proof. vm_compute. auto. Qed.

(* hooks registered after a manager was first filled take effect at the next fill *)
Definition ex_before : cfg :=
  mkcfg [(0, syn_attr false false); (1, syn_attr true false)] [(0, [ESetDescr 7])] [(0, UTo 1); (1, UPrune)]
        [] [] [] [] SrcFacts.context_guard SrcFacts.push_restores_in_finally.
Definition ex_after : cfg :=
  mkcfg [(0, syn_attr true false); (1, syn_attr true false)] [(0, [ESetDescr 7])] [(0, UTo 1); (1, UPrune)]
        [] [] [] [] SrcFacts.context_guard SrcFacts.push_restores_in_finally.

Example ex_late_registration :
  fst (fst (fill ex_before None (fresh 0))) = Done (fresh 0)
  /\ fst (fst (fill ex_after None (fresh 0))) = Done (mkctx 1 None [] true (Some [ATag 7]) false).
Proof. vm_compute. auto. Qed.
